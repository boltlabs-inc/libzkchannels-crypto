From ZK Require Import Model.Field Model.Pedersen Model.PS Model.Schnorr Model.Range Model.Abacus Proofs.FieldFacts
  Proofs.SchnorrProofs Proofs.RangeProofs Proofs.EstablishProofs.
Local Open Scope fld_scope.

Section P.
Variable K : Fld.
Variable close_tag : K.
Add Field PayField : (Fth K).

Notation pverify := (pay_verify_with close_tag).

(** the exact relation accepted by [PayProof::verify] for challenge [c] *)
Definition pay_rel (pk : pkey K) (rp : rparams K) (hr gr nonce eps : K) (p : pproof K) (c : K) : Prop :=
  let s := p_sp p in let cs := p_csp p in let t := sp_cp (p_tok p) in
  cp_verify (pk_g1 pk) (pk_y1s pk) s c = true /\
  cp_verify (pk_g1 pk) (pk_y1s pk) cs c = true /\
  sig_verify pk (p_tok p) c = true /\
  cp_verify hr [gr] (p_rev p) c = true /\
  range_verify rp (p_crange p) c (rs_at s 3) = true /\
  range_verify rp (p_mrange p) c (rs_at s 4) = true /\
  (rs_at s 0 = rs_at cs 0 /\ rs_at cs 0 = rs_at t 0) /\
  rs_at cs 1 = c * close_tag + p_kclose p /\
  rs_at (p_rev p) 0 = rs_at t 2 /\
  rs_at s 2 = rs_at cs 2 /\
  rs_at t 1 = c * nonce + p_knonce p /\
  rs_at s 3 = rs_at cs 3 /\
  rs_at s 4 = rs_at cs 4 /\
  rs_at s 3 = rs_at t 3 - c * eps /\
  rs_at s 4 = rs_at t 4 + c * eps.

Theorem pay_verify_spec (pk : pkey K) rp hr gr nonce eps (p : pproof K) c v :
  pverify pk rp hr gr nonce eps p c = Some v <->
  pay_rel pk rp hr gr nonce eps p c /\ v = (cp_C (p_sp p), cp_C (p_csp p), cp_C (p_rev p)).
Proof. unfold pay_verify_with, pay_rel, req_verify.
  destruct (cp_verify _ _ (p_sp p) c), (cp_verify _ _ (p_csp p) c);
    try (split; [discriminate | intros [(? & ? & _) _]; discriminate]).
  rewrite if_Some. rewrite_strat topdown (terms andb_true_iff (feqb_ok K)). tauto. Qed.

Theorem pay_complete (pk : pkey K) rp hr gr (tok : sigt K) cid nonce lock ocb omb nn lock' cbz mbz eps d c :
  verify pk [cid; nonce; lock; ocb; omb] tok = true ->
  validate rp = true -> length (rp_sigs rp) = 128%nat ->
  (0 <= cbz < 2 ^ 63)%Z -> (0 <= mbz < 2 ^ 63)%Z ->
  of_Z cbz = ocb - eps -> of_Z mbz = omb + eps ->
  length (d_dsc d) = 9%nat -> length (d_dsm d) = 9%nat ->
  Forall (fun rd => rd_r rd <> f0) (d_dsc d) -> Forall (fun rd => rd_r rd <> f0) (d_dsm d) ->
  d_rt d <> f0 ->
  let old := [cid; nonce; lock; ocb; omb] in
  let new := [cid; nn; lock'; of_Z cbz; of_Z mbz] in
  exists p, pay_prove_with close_tag pk rp hr gr tok old cbz mbz new d c = Some p /\
    pverify pk rp hr gr nonce eps p c
    = Some (blind pk new (d_bfs d), blind pk [cid; close_tag; lock'; of_Z cbz; of_Z mbz] (d_bfc d),
            commit hr [gr] [lock] (d_bfr d)).
Proof. intros Htok Hval Hlen Hcb Hmb Ecb Emb L1 L2 R1 R2 Hrt old new.
  destruct (range_complete K rp cbz (d_dsc d) c Hval Hlen Hcb L1 R1) as (prc & Pc & Vc).
  destruct (range_complete K rp mbz (d_dsm d) c Hval Hlen Hmb L2 R2) as (prm & Pm & Vm).
  unfold pay_prove_with. rewrite Pc, Pm. eexists; split; [reflexivity|].
  apply pay_verify_spec. split; [|reflexivity].
  unfold pay_rel; cbn [p_sp p_csp p_tok p_rev p_crange p_mrange p_knonce p_kclose nth].
  unfold new, old; cbn [nth].
  split; [apply (cp_complete K); reflexivity|].
  split; [apply (cp_complete K); reflexivity|].
  split; [rewrite (sig_complete K) by (try reflexivity; exact Htok); now apply (fneqb_true K)|].
  split; [apply (cp_complete K); reflexivity|].
  unfold rs_at, req_prove, sig_prove, cp_prove, cp_respond; cbn [cp_rs sp_cp map2 nth].
  split; [exact Vc|]. split; [exact Vm|].
  repeat split.
  - rewrite Ecb. ring.
  - rewrite Emb. ring. Qed.

Definition pay_same_first (p p' : pproof K) : Prop :=
  p_knonce p = p_knonce p' /\ p_kclose p = p_kclose p' /\
  sp_sig (p_tok p) = sp_sig (p_tok p') /\
  cp_C (sp_cp (p_tok p)) = cp_C (sp_cp (p_tok p')) /\ cp_T (sp_cp (p_tok p)) = cp_T (sp_cp (p_tok p')) /\
  cp_C (p_rev p) = cp_C (p_rev p') /\ cp_T (p_rev p) = cp_T (p_rev p') /\
  cp_C (p_sp p) = cp_C (p_sp p') /\ cp_T (p_sp p) = cp_T (p_sp p') /\
  cp_C (p_csp p) = cp_C (p_csp p') /\ cp_T (p_csp p) = cp_T (p_csp p') /\
  Forall2 (same_first K) (p_crange p) (p_crange p') /\ Forall2 (same_first K) (p_mrange p) (p_mrange p').

Definition pay_lengths (pk : pkey K) (p : pproof K) : Prop :=
  length (cp_rs (sp_cp (p_tok p))) = 5%nat /\ length (cp_rs (p_rev p)) = 1%nat /\
  length (cp_rs (p_sp p)) = 5%nat /\ length (cp_rs (p_csp p)) = 5%nat.

Theorem pay_special_soundness (pk : pkey K) rp hr gr nonce eps (p p' : pproof K) c c' :
  c - c' <> f0 -> length (pk_y1s pk) = 5%nat -> length (pk_y2s pk) = 5%nat ->
  length (pk_y2s (rp_pk rp)) = 1%nat ->
  pay_lengths pk p -> pay_lengths pk p' -> pay_same_first p p' ->
  pay_rel pk rp hr gr nonce eps p c -> pay_rel pk rp hr gr nonce eps p' c' ->
  let d := c - c' in
  let mo := xs K d (sp_cp (p_tok p)) (sp_cp (p_tok p')) in     (* old state *)
  let mn := xs K d (p_sp p) (p_sp p') in                         (* new state *)
  let mc := xs K d (p_csp p) (p_csp p') in                       (* new close state *)
  let ml := xs K d (p_rev p) (p_rev p') in                       (* committed old lock *)
  (* the prover holds a valid signature under the merchant key on the old state *)
  verify pk mo (unblind (xbf K d (sp_cp (p_tok p)) (sp_cp (p_tok p'))) (sp_sig (p_tok p))) = true /\
  (* the three commitments handed to the merchant open to these messages *)
  cp_C (p_sp p) = blind pk mn (xbf K d (p_sp p) (p_sp p')) /\
  cp_C (p_csp p) = blind pk mc (xbf K d (p_csp p) (p_csp p')) /\
  cp_C (p_rev p) = commit hr [gr] ml (xbf K d (p_rev p) (p_rev p')) /\
  (* and the messages are related as the statement says *)
  nth 1 mo f0 = nonce /\
  nth 0 mn f0 = nth 0 mo f0 /\ nth 0 mc f0 = nth 0 mo f0 /\
  nth 1 mc f0 = close_tag /\
  nth 0 ml f0 = nth 2 mo f0 /\
  nth 2 mn f0 = nth 2 mc f0 /\
  nth 3 mn f0 = nth 3 mo f0 - eps /\ nth 4 mn f0 = nth 4 mo f0 + eps /\
  nth 3 mc f0 = nth 3 mn f0 /\ nth 4 mc f0 = nth 4 mn f0 /\
  (* each new balance is a weighted sum of nine messages that carry valid range-key signatures *)
  (Forall2 (fun q q' => exists bf, verify (rp_pk rp) [xdigit K d q q'] (unblind bf (sp_sig q)) = true)
           (p_crange p) (p_crange p') /\
   horner K (map2 (xdigit K d) (p_crange p) (p_crange p')) = nth 3 mn f0) /\
  (Forall2 (fun q q' => exists bf, verify (rp_pk rp) [xdigit K d q q'] (unblind bf (sp_sig q)) = true)
           (p_mrange p) (p_mrange p') /\
   horner K (map2 (xdigit K d) (p_mrange p) (p_mrange p')) = nth 4 mn f0).
Proof. intros Hc Hy1 Hy2 Hyr (Lt & Lr & Ls & Lc) (Lt' & Lr' & Ls' & Lc')
    (Ek1 & Ek2 & Esig & ECt & ETt & ECr & ETr & ECs & ETs & ECc & ETc & Frc & Frm).
  intros (V1 & V2 & V3 & V4 & V5 & V6 & [A0 A0b] & A1 & A2 & A3 & A4 & A5 & A6 & A7 & A8)
         (V1' & V2' & V3' & V4' & V5' & V6' & [A0' A0b'] & A1' & A2' & A3' & A4' & A5' & A6' & A7' & A8').
  pose proof (range_special_soundness K rp _ _ c c' _ _ Hc Hyr Frc V5 V5') as Rc.
  pose proof (range_special_soundness K rp _ _ c c' _ _ Hc Hyr Frm V6 V6') as Rm.
  cbv zeta. erewrite !nth_xs by eassumption. rewrite <- Ek1, <- Ek2 in *.
  (* the slots tied by an equation between responses go by [congruence]; the others by the matching fact about [ext] *)
  repeat match goal with |- _ /\ _ => split end; try congruence; try apply Rc; try apply Rm.
  - apply (sig_extract K); auto; congruence.
  - apply (cp_extract K); auto; congruence.
  - apply (cp_extract K); auto; congruence.
  - apply (cp_extract K); auto; congruence.
  - rewrite A4, A4'. now apply ext_public.
  - rewrite A1, A1'. now apply ext_public.
  - rewrite A7, A7'. now apply ext_sub.
  - rewrite A8, A8'. now apply ext_add. Qed.

Theorem one_token_two_nonces (pk : pkey K) rp hr gr nonce nonce' eps eps' (p : pproof K) c :
  pay_rel pk rp hr gr nonce eps p c -> pay_rel pk rp hr gr nonce' eps' p c -> nonce <> nonce' -> c = f0.
Proof. intros (_ & _ & _ & _ & _ & _ & _ & _ & _ & _ & A4 & _) (_ & _ & _ & _ & _ & _ & _ & _ & _ & _ & A4' & _) Hne.
  destruct (feqbP K c f0) as [|Hc]; [assumption|]. contradict Hne.
  apply (affine_inj K c (p_knonce p)); congruence. Qed.

Theorem replace_amount (pk : pkey K) rp hr gr nonce eps eps' (p : pproof K) c :
  pay_rel pk rp hr gr nonce eps p c -> pay_rel pk rp hr gr nonce eps' p c -> eps <> eps' -> c = f0.
Proof. intros (_ & _ & _ & _ & _ & _ & _ & _ & _ & _ & _ & _ & _ & _ & A8) (_ & _ & _ & _ & _ & _ & _ & _ & _ & _ & _ & _ & _ & _ & A8') Hne.
  destruct (feqbP K c f0) as [|Hc]; [assumption|]. contradict Hne.
  apply (affine_inj K c (rs_at (sp_cp (p_tok p)) 4)); [exact Hc|]. rewrite !(Radd_comm (F_R (Fth K)) (c * _)). congruence. Qed.

(** acceptance under other revocation-commitment parameters: exactly when the parameter change is
    annihilated by the responses *)
Theorem replace_rev_params (hr gr hr' gr' : K) (p : cproof K) c : length (cp_rs p) = 1%nat ->
  cp_verify hr [gr] p c = true ->
  (cp_verify hr' [gr'] p c = true <-> cp_rbf p * (hr' - hr) + rs_at p 0 * (gr' - gr) = f0).
Proof. intros L V. apply (cp_verify_iff K) in V. rewrite (cp_verify_iff K), <- V.
  unfold rs_at. destruct (cp_rs p) as [|r [|? ?]]; try discriminate. unfold commit. cbn [ip nth].
  apply (eq_iff_diff0 K). ring. Qed.

End P.
