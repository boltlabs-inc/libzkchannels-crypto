From ZK Require Import Model.Field Model.Pedersen Model.PS Model.Schnorr Model.Abacus Proofs.FieldFacts Proofs.PSProofs
  Proofs.SchnorrProofs.
Local Open Scope fld_scope.

Section P.
Variable K : Fld.
Variable close_tag : K.

Notation everify := (establish_verify_with close_tag).

(** the exact relation accepted by [EstablishProof::verify] for challenge [c] *)
Definition establish_rel (pk : pkey K) (cid cb mb : K) (p : eproof K) (c : K) : Prop :=
  let s := e_sp p in let cs := e_csp p in
  commit (pk_g1 pk) (pk_y1s pk) (cp_rs s) (cp_rbf s) = cp_T s + cp_C s * c /\
  commit (pk_g1 pk) (pk_y1s pk) (cp_rs cs) (cp_rbf cs) = cp_T cs + cp_C cs * c /\
  rs_at s 0 = c * cid + e_kcid p /\ rs_at cs 0 = c * cid + e_kcid p /\
  rs_at cs 1 = c * close_tag + e_kclose p /\
  rs_at s 2 = rs_at cs 2 /\
  rs_at s 3 = c * cb + e_kcb p /\ rs_at cs 3 = c * cb + e_kcb p /\
  rs_at s 4 = c * mb + e_kmb p /\ rs_at cs 4 = c * mb + e_kmb p.

Theorem establish_verify_spec (pk : pkey K) cid cb mb (p : eproof K) c v :
  everify pk cid cb mb p c = Some v <->
  establish_rel pk cid cb mb p c /\ v = (cp_C (e_sp p), cp_C (e_csp p)).
Proof. unfold establish_verify_with, establish_rel, req_verify. rewrite <- !(cp_verify_iff K).
  destruct (cp_verify _ _ (e_sp p) c), (cp_verify _ _ (e_csp p) c);
    try (split; [discriminate | intros [(? & ? & _) _]; discriminate]).
  (* top-down in one pass: [rewrite !andb_true_iff] starts again at the outermost [&&] each time *)
  rewrite if_Some. rewrite_strat topdown (terms andb_true_iff (feqb_ok K)). tauto. Qed.

(** two honest request proofs for ANY hidden messages that agree in slots 0, 2, 3, 4 are accepted with ANY four
    revealed scalars that fit the responses: completeness (the scalars are the commitment scalars) and the forgery
    against the pinned transcript (the scalars are chosen after the challenge) are the two uses *)
Lemma establish_rel_responses (pk : pkey K) cid cb mb kcid kclose kcb kmb m0 m1 m2 m3 m4 c1 k0 k1 k2 k3 k4 kc1 bfs kbfs bfc kbfc c :
  c * m0 + k0 = c * cid + kcid -> c * c1 + kc1 = c * close_tag + kclose ->
  c * m3 + k3 = c * cb + kcb -> c * m4 + k4 = c * mb + kmb ->
  establish_rel pk cid cb mb
    (mkEP kcid kclose kcb kmb (req_prove pk [m0; m1; m2; m3; m4] bfs kbfs [k0; k1; k2; k3; k4] c)
                              (req_prove pk [m0; c1; m2; m3; m4] bfc kbfc [k0; kc1; k2; k3; k4] c)) c.
Proof. intros E0 E1 E3 E4. unfold establish_rel, req_prove; cbn [e_sp e_csp e_kcid e_kclose e_kcb e_kmb].
  repeat split; try (apply (cp_verify_iff K), (cp_complete K)); assumption || reflexivity. Qed.

Theorem establish_complete (pk : pkey K) cid nonce lock cb mb bfs kbfs ks bfc kbfc kclose c :
  length ks = 5%nat ->
  everify pk cid cb mb (establish_prove_with close_tag pk cid nonce lock cb mb bfs kbfs ks bfc kbfc kclose c) c
  = Some (blind pk (state_msg cid nonce lock cb mb) bfs, blind pk (close_msg close_tag cid lock cb mb) bfc).
Proof. intros Hl. destruct ks as [|k0 [|k1 [|k2 [|k3 [|k4 [|? ?]]]]]]; try discriminate.
  apply establish_verify_spec. split; [now apply establish_rel_responses | reflexivity]. Qed.

Theorem establish_fiat_shamir_complete (chal : list (atom K) -> K) (pk : pkey K)
        cid nonce lock cb mb bfs kbfs ks bfc kbfc kclose ctx :
  length ks = 5%nat ->
  establish_verify close_tag chal pk cid cb mb
    (establish_prove close_tag chal pk cid nonce lock cb mb bfs kbfs ks bfc kbfc kclose ctx) ctx
  = Some (blind pk (state_msg cid nonce lock cb mb) bfs, blind pk (close_msg close_tag cid lock cb mb) bfc).
Proof. (* the transcript reads only the first message of the proof: what the prover hashed is what the verifier hashes, by conversion *)
  intros Hl. now apply establish_complete. Qed.

Definition same_first_message (p p' : eproof K) : Prop :=
  e_kcid p = e_kcid p' /\ e_kclose p = e_kclose p' /\ e_kcb p = e_kcb p' /\ e_kmb p = e_kmb p' /\
  cp_C (e_sp p) = cp_C (e_sp p') /\ cp_T (e_sp p) = cp_T (e_sp p') /\
  cp_C (e_csp p) = cp_C (e_csp p') /\ cp_T (e_csp p) = cp_T (e_csp p').

Definition xs (d : K) (p p' : cproof K) : list K := map2 (ext K d) (cp_rs p) (cp_rs p').
Definition xbf (d : K) (p p' : cproof K) : K := ext K d (cp_rbf p) (cp_rbf p').

Lemma nth_xs d (p p' : cproof K) i n : length (cp_rs p) = n -> length (cp_rs p') = n ->
  nth i (xs d p p') f0 = ext K d (rs_at p i) (rs_at p' i).
Proof. intros L L'. apply (nth_map2_ext K). now rewrite L'. Qed.

Theorem establish_special_soundness (pk : pkey K) cid cb mb (p p' : eproof K) c c' :
  c - c' <> f0 -> length (pk_y1s pk) = 5%nat ->
  length (cp_rs (e_sp p)) = 5%nat -> length (cp_rs (e_sp p')) = 5%nat ->
  length (cp_rs (e_csp p)) = 5%nat -> length (cp_rs (e_csp p')) = 5%nat ->
  same_first_message p p' ->
  establish_rel pk cid cb mb p c -> establish_rel pk cid cb mb p' c' ->
  let d := c - c' in
  let ms := xs d (e_sp p) (e_sp p') in let mc := xs d (e_csp p) (e_csp p') in
  cp_C (e_sp p) = blind pk ms (xbf d (e_sp p) (e_sp p')) /\
  cp_C (e_csp p) = blind pk mc (xbf d (e_csp p) (e_csp p')) /\
  nth 0 ms f0 = cid /\ nth 0 mc f0 = cid /\
  nth 1 mc f0 = close_tag /\
  nth 2 ms f0 = nth 2 mc f0 /\
  nth 3 ms f0 = cb /\ nth 3 mc f0 = cb /\
  nth 4 ms f0 = mb /\ nth 4 mc f0 = mb.
Proof. intros Hc Hy L1 L1' L2 L2' (Ek1 & Ek2 & Ek3 & Ek4 & EC1 & ET1 & EC2 & ET2).
  intros (S1 & S2 & A0 & B0 & B1 & A2 & A3 & B3 & A4 & B4) (S1' & S2' & A0' & B0' & B1' & A2' & A3' & B3' & A4' & B4').
  cbv zeta. erewrite !nth_xs by eassumption.
  (* every slot equation holds of both proofs with the same revealed scalar, under [c] and under [c'] *)
  rewrite A0, B0, B1, A2, A3, B3, A4, B4, A0', B0', B1', A2', A3', B3', A4', B4', <- Ek1, <- Ek2, <- Ek3, <- Ek4.
  rewrite !(ext_public K) by exact Hc.
  (* the eight slot equations now read [x = x]; the two openings remain *)
  split; [|split; [|repeat split]]; apply (cp_extract K); try congruence; now apply (cp_verify_iff K). Qed.

(** with such openings, what the merchant signs unblinds to signatures on exactly those messages *)
Theorem establish_then_sign (sk : skey K) (pk : pkey K) ms bf u :
  key_ok K sk pk -> pk_g1 pk <> f0 -> u <> f0 ->
  verify pk ms (unblind bf (blind_sign sk pk u (blind pk ms bf))) = true.
Proof. apply blind_sign_unblind. Qed.

End P.
