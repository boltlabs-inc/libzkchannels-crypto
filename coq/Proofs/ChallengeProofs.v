(** Binding of the Fiat-Shamir transcripts: the hashed chunk list determines every hashed value. *)
From ZK Require Import Model.Field Model.PS Model.Schnorr Model.Range Model.Abacus Proofs.FieldFacts.
Local Open Scope fld_scope.

Section P.
Variable K : Fld.
Variable close_tag : K.

Lemma A1_inj (x y : K) : A1 x = A1 y -> x = y. Proof. now intros [= ->]. Qed.
Lemma A2_inj (x y : K) : A2 x = A2 y -> x = y. Proof. now intros [= ->]. Qed.

Lemma pk_chunks_length (pk : pkey K) : length (pk_chunks pk) = (3 + length (pk_y1s pk) + length (pk_y2s pk))%nat.
Proof. simpl. rewrite app_length, !map_length. lia. Qed.

Theorem pk_chunks_injective (pk pk' : pkey K) :
  length (pk_y1s pk) = length (pk_y1s pk') -> pk_chunks pk = pk_chunks pk' -> pk = pk'.
Proof. intros L H. injection H as H1 H2 H3 H4.
  apply app_inj_len in H4; [|now rewrite !map_length]. destruct H4 as [H4 H5].
  apply (map_inj _ A1_inj) in H4. apply (map_inj _ A2_inj) in H5.
  destruct pk, pk'; simpl in *; congruence. Qed.

Lemma pk_chunks_app_inj (pk pk' : pkey K) (r r' : list (atom K)) :
  length (pk_y1s pk) = length (pk_y1s pk') -> length (pk_y2s pk) = length (pk_y2s pk') ->
  pk_chunks pk ++ r = pk_chunks pk' ++ r' -> pk = pk' /\ r = r'.
Proof. intros L1 L2 H. apply app_inj_len in H; [|rewrite !pk_chunks_length; lia].
  destruct H as [H ->]. split; [|reflexivity]. now apply pk_chunks_injective. Qed.

(** Establish: the transcript determines the key, the public values, both (C, T) pairs, the four revealed
    commitment scalars and the context: every field of the proof that is not a response scalar. *)
Theorem establish_transcript_binds (pk pk' : pkey K) cid cb mb cid' cb' mb' (p p' : eproof K) ctx ctx' :
  length (pk_y1s pk) = length (pk_y1s pk') -> length (pk_y2s pk) = length (pk_y2s pk') ->
  establish_transcript close_tag pk cid cb mb p ctx = establish_transcript close_tag pk' cid' cb' mb' p' ctx' ->
  pk = pk' /\ cid = cid' /\ cb = cb' /\ mb = mb' /\
  cp_C (e_sp p) = cp_C (e_sp p') /\ cp_T (e_sp p) = cp_T (e_sp p') /\
  cp_C (e_csp p) = cp_C (e_csp p') /\ cp_T (e_csp p) = cp_T (e_csp p') /\
  e_kcid p = e_kcid p' /\ e_kclose p = e_kclose p' /\ e_kcb p = e_kcb p' /\ e_kmb p = e_kmb p' /\
  ctx = ctx'.
Proof. intros L1 L2 H.
  apply pk_chunks_app_inj in H; auto. destruct H as [-> H].
  injection H as -> -> -> -> -> -> -> -> -> -> -> ->. repeat split. Qed.

Definition sp_first (p : sproof K) := (sp_sig p, cp_C (sp_cp p), cp_T (sp_cp p)).

Lemma sp_chunks_injective (p p' : sproof K) : sp_chunks p = sp_chunks p' -> sp_first p = sp_first p'.
Proof. unfold sp_first. intros [= H1 H2 H3 H4].
  destruct (sp_sig p), (sp_sig p'); simpl in *. congruence. Qed.

Lemma range_chunks_app_inj (ps ps' : list (sproof K)) r r' : length ps = length ps' ->
  range_chunks ps ++ r = range_chunks ps' ++ r' -> map sp_first ps = map sp_first ps' /\ r = r'.
Proof. intros L. apply flat_map_app_inj; [exact sp_chunks_injective | now apply Forall2_trivial]. Qed.

Lemma rp_chunks_length (rp : rparams K) :
  length (rp_chunks rp) = (2 * length (rp_sigs rp) + length (pk_chunks (rp_pk rp)))%nat.
Proof. unfold rp_chunks. rewrite app_length. f_equal.
  induction (rp_sigs rp) as [|s l IH]; simpl; [reflexivity|]. rewrite IH. lia. Qed.

Theorem rp_chunks_app_inj (rp rp' : rparams K) (r r' : list (atom K)) :
  length (rp_sigs rp) = length (rp_sigs rp') ->
  length (pk_y1s (rp_pk rp)) = length (pk_y1s (rp_pk rp')) ->
  length (pk_y2s (rp_pk rp)) = length (pk_y2s (rp_pk rp')) ->
  rp_chunks rp ++ r = rp_chunks rp' ++ r' -> rp = rp' /\ r = r'.
Proof. intros L1 L2 L3 H. unfold rp_chunks in H. rewrite <- !app_assoc in H.
  apply (flat_map_app_inj sig_chunks id) in H; [| now intros [? ?] [? ?] [= -> ->] | now apply Forall2_trivial].
  destruct H as [H1 H2]. rewrite !map_id in H1. apply pk_chunks_app_inj in H2; auto. destruct H2 as [H2 ->].
  destruct rp, rp'; simpl in *. subst. auto. Qed.

(** Pay: the transcript determines key, range parameters, nonce, every (C, T), every blinded signature,
    the two revealed commitment scalars and the context. *)
Theorem pay_transcript_binds (pk pk' : pkey K) (rp rp' : rparams K) nonce nonce' (p p' : pproof K) ctx ctx' :
  length (pk_y1s pk) = length (pk_y1s pk') -> length (pk_y2s pk) = length (pk_y2s pk') ->
  length (rp_sigs rp) = length (rp_sigs rp') ->
  length (pk_y1s (rp_pk rp)) = length (pk_y1s (rp_pk rp')) ->
  length (pk_y2s (rp_pk rp)) = length (pk_y2s (rp_pk rp')) ->
  length (p_crange p) = length (p_crange p') -> length (p_mrange p) = length (p_mrange p') ->
  pay_transcript close_tag pk rp nonce p ctx = pay_transcript close_tag pk' rp' nonce' p' ctx' ->
  pk = pk' /\ rp = rp' /\ nonce = nonce' /\
  cp_C (p_rev p) = cp_C (p_rev p') /\ cp_T (p_rev p) = cp_T (p_rev p') /\
  cp_C (p_sp p) = cp_C (p_sp p') /\ cp_T (p_sp p) = cp_T (p_sp p') /\
  cp_C (p_csp p) = cp_C (p_csp p') /\ cp_T (p_csp p) = cp_T (p_csp p') /\
  sp_first (p_tok p) = sp_first (p_tok p') /\
  map sp_first (p_crange p) = map sp_first (p_crange p') /\
  map sp_first (p_mrange p) = map sp_first (p_mrange p') /\
  p_knonce p = p_knonce p' /\ p_kclose p = p_kclose p' /\ ctx = ctx'.
Proof. intros L1 L2 L3 L4 L5 L6 L7 H.
  apply pk_chunks_app_inj in H; auto. destruct H as [-> H].
  apply rp_chunks_app_inj in H; auto. destruct H as [-> H].
  injection H as -> -> -> -> -> -> -> S1 S2 S3 S4 H.
  apply range_chunks_app_inj in H; auto. destruct H as [R1 H].
  apply range_chunks_app_inj in H; auto. destruct H as [R2 [= -> -> ->]].
  repeat split; auto. apply sp_chunks_injective. unfold sp_chunks, cp2_chunks. congruence. Qed.

End P.

