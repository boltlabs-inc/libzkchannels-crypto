(** C16 — Decoding untrusted bytes never panics, aborts or over-allocates.
    Partial: exact for the decoder logic of serde.rs as modelled in Model/Wire.v; three behaviours of dependencies
    are MODELLED (validated by the correspondence, not proved): ArrayVec::push panics when full / try_push returns
    an error; bincode's SeqAccess yields exactly the announced number of elements, decoding each on demand with an
    EOF error; Vec::with_capacity(n) requests n elements.  Allocator internals are outside the model. *)
From ZK Require Import Model.Field Model.Wire Model.Codecs Proofs.WireProofs Proofs.CodecsProofs.
Open Scope Z_scope.

(** for EVERY byte string: no panic, and never more than 1024 elements of capacity requested *)
Theorem C16_array_never_panics : forall A (c : codec A), codec_ok c -> forall (n : nat), Z.of_nat n + 1 < 2 ^ 64 ->
  forall bs, dec (c_array n c) bs <> DPanic /\ alloc_of (dec (c_array n c) bs) <= 1024.
Proof. intros A c Hc n Hn. apply (ok_safe (c_array n c)). now apply ok_array. Qed.

Theorem C16_vec_never_panics_and_caps_allocation : forall A (c : codec A), codec_ok c ->
  forall bs, dec (c_vec c) bs <> DPanic /\ alloc_of (dec (c_vec c) bs) <= 1024.
Proof. intros A c. exact (vec_safe c). Qed.

Theorem C16_every_codec_total : forall A (c : codec A), codec_ok c ->
  forall bs, dec c bs <> DPanic /\ alloc_of (dec c bs) <= 1024.
Proof. intros A c. exact (ok_safe c). Qed.

(** hence for every composite wire type (instances: the largest ones) *)
Theorem C16_pay_proof_total : forall (K : Fld) (c_scalar c_g1 c_g2 : codec K),
  codec_ok c_scalar -> codec_ok c_g1 -> codec_ok c_g2 ->
  forall bs, dec (c_pay_proof K c_scalar c_g1 c_g2) bs <> DPanic /\ alloc_of (dec (c_pay_proof K c_scalar c_g1 c_g2) bs) <= 1024.
Proof. intros. apply C16_every_codec_total. eauto 60 with codec. Qed.

Theorem C16_key_pair_total : forall (K : Fld) (c_scalar c_g1 c_g2 : codec K) (n : nat),
  codec_ok c_scalar -> codec_ok c_g1 -> codec_ok c_g2 -> Z.of_nat n + 1 < 2 ^ 64 ->
  forall bs, dec (c_keypair K c_scalar c_g1 c_g2 n) bs <> DPanic.
Proof. intros. apply C16_every_codec_total. eauto 60 with codec. Qed.

(** refutations of the pinned decoders (D3), machine-checked witnesses *)
Theorem C16_pinned_array_visitor_panics_refuted : dec (c_array_pinned 2 c_byte) (le8 3 ++ [7; 8; 9]) = DPanic.
Proof. exact array_pinned_panics. Qed.
Theorem C16_pinned_vec_allocation_unbounded_refuted : dec (c_vec_pinned c_byte) (le8 (2 ^ 40)) = DErr (2 ^ 40).
Proof. exact vec_pinned_alloc_unbounded. Qed.
Theorem C16_repaired_behaviour_on_the_same_inputs :
  dec (c_array 2 c_byte) (le8 3 ++ [7; 8; 9]) = DErr 0 /\ dec (c_vec c_byte) (le8 (2 ^ 40)) = DErr 1024.
Proof. split; [exact array_repaired_errors | exact vec_repaired_alloc_capped]. Qed.

Print Assumptions C16_array_never_panics.
Print Assumptions C16_vec_never_panics_and_caps_allocation.
Print Assumptions C16_every_codec_total.
Print Assumptions C16_pay_proof_total.
Print Assumptions C16_key_pair_total.
Print Assumptions C16_pinned_array_visitor_panics_refuted.
Print Assumptions C16_pinned_vec_allocation_unbounded_refuted.
Print Assumptions C16_repaired_behaviour_on_the_same_inputs.
