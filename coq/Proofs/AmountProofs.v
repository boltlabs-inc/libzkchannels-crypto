From ZK Require Import Model.Field Model.QBls Model.Amount Model.Range Proofs.FieldFacts Proofs.IdsProofs Proofs.RangeProofs.
Open Scope Z_scope.

Ltac unfold_ranges := unfold is_u64, is_i64, i64_min, i64_max, u64_max in *.

Theorem try_new_spec v : is_u64 v ->
  (v <= i64_max -> balance_try_new v = Ok v) /\ (v > i64_max -> balance_try_new v = Err (AmountTooLarge v)).
Proof. intros Hv. unfold balance_try_new. destruct (Z.gtb_spec v i64_max); split; try lia; reflexivity. Qed.

Theorem try_new_ok_iff v b : is_u64 v -> (balance_try_new v = Ok b <-> b = v /\ 0 <= v <= i64_max).
Proof. intros Hv. unfold balance_try_new. unfold_ranges. destruct (Z.gtb_spec v (2 ^ 63 - 1)); split.
  - discriminate. - lia. - intros [= <-]. lia. - intros [-> _]. reflexivity. Qed.

Theorem pay_merchant_spec amount : is_u64 amount ->
  (amount <= i64_max -> pay_merchant amount = Ok amount) /\
  (amount > i64_max -> pay_merchant amount = Err (AmountTooLarge amount)).
Proof. intros Hv. unfold pay_merchant. destruct (Z.leb_spec amount i64_max); split; try lia; reflexivity. Qed.

Theorem pay_customer_spec amount : is_u64 amount ->
  (amount <= i64_max -> pay_customer amount = Ok (- amount) /\ is_i64 (- amount)) /\
  (amount > i64_max -> pay_customer amount = Err (AmountTooLarge amount)).
Proof. intros Hv. unfold pay_customer. unfold_ranges. destruct (Z.leb_spec amount (2 ^ 63 - 1)); split; intros; try lia; auto.
  split; [reflexivity|lia]. Qed.

(** ** payment application: total, exact, range preserving, for every balance that can exist (<= i64::MAX) and
    every i64 amount (including i64::MIN, which decodes from the wire) *)
Lemma apply_signed_spec nv : nv <= u64_max ->
  (0 <= nv <= i64_max -> apply_signed nv = Ok nv) /\
  (nv < 0 -> apply_signed nv = Err InsufficientFunds) /\
  (nv > i64_max -> apply_signed nv = Err (AmountTooLarge nv)).
Proof. intros Hn. unfold apply_signed, balance_try_new, wrap_u64. unfold_ranges. destruct (Z.ltb_spec nv 0).
  - repeat split; intros; try lia; reflexivity.
  - rewrite Z.mod_small by lia. destruct (Z.gtb_spec nv (2 ^ 63 - 1)); repeat split; intros; try lia; reflexivity. Qed.

Theorem merchant_apply_spec b a : 0 <= b <= i64_max -> is_i64 a ->
  (0 <= b + a <= i64_max -> merchant_apply b a = Ok (b + a)) /\
  (b + a < 0 -> merchant_apply b a = Err InsufficientFunds) /\
  (b + a > i64_max -> merchant_apply b a = Err (AmountTooLarge (b + a))).
Proof. intros Hb Ha. apply apply_signed_spec. unfold_ranges. lia. Qed.

Theorem customer_apply_spec b a : 0 <= b <= i64_max -> is_i64 a ->
  (0 <= b - a <= i64_max -> customer_apply b a = Ok (b - a)) /\
  (b - a < 0 -> customer_apply b a = Err InsufficientFunds) /\
  (b - a > i64_max -> customer_apply b a = Err (AmountTooLarge (b - a))).
Proof. intros Hb Ha. apply apply_signed_spec. unfold_ranges. lia. Qed.

Lemma apply_signed_ok nv v : nv <= u64_max -> apply_signed nv = Ok v -> v = nv /\ 0 <= nv <= i64_max.
Proof. intros Hn H. destruct (apply_signed_spec nv Hn) as (S1 & S2 & S3).
  destruct (Z_lt_dec nv 0); [rewrite S2 in H by lia; discriminate|].
  destruct (Z_gt_dec nv i64_max); [rewrite S3 in H by lia; discriminate|]. rewrite S1 in H by lia. injection H as <-. lia. Qed.

Lemma apply_payment_ok_inv cb mb a cb' mb' : 0 <= cb <= i64_max -> 0 <= mb <= i64_max -> is_i64 a ->
  apply_payment cb mb a = Ok (cb', mb') ->
  cb' = cb - a /\ mb' = mb + a /\ 0 <= cb' <= i64_max /\ 0 <= mb' <= i64_max /\ cb' + mb' = cb + mb.
Proof. intros Hc Hm Ha H. unfold apply_payment in H.
  destruct (customer_apply cb a) as [x|] eqn:C; [|discriminate]. destruct (merchant_apply mb a) as [y|] eqn:M; [|discriminate].
  injection H as <- <-. apply apply_signed_ok in C, M; unfold_ranges; lia. Qed.

(** a payment succeeds exactly when both results stay in range, returns exactly the integer results and conserves the sum;
    otherwise the customer's error is reported first *)
Theorem apply_payment_spec cb mb a : 0 <= cb <= i64_max -> 0 <= mb <= i64_max -> is_i64 a ->
  (0 <= cb - a <= i64_max /\ 0 <= mb + a <= i64_max -> apply_payment cb mb a = Ok (cb - a, mb + a)) /\
  (forall cb' mb', apply_payment cb mb a = Ok (cb', mb') ->
     cb' = cb - a /\ mb' = mb + a /\ 0 <= cb' <= i64_max /\ 0 <= mb' <= i64_max /\ cb' + mb' = cb + mb) /\
  (cb - a < 0 -> apply_payment cb mb a = Err InsufficientFunds) /\
  (cb - a > i64_max -> apply_payment cb mb a = Err (AmountTooLarge (cb - a))) /\
  (0 <= cb - a <= i64_max -> mb + a < 0 -> apply_payment cb mb a = Err InsufficientFunds) /\
  (0 <= cb - a <= i64_max -> mb + a > i64_max -> apply_payment cb mb a = Err (AmountTooLarge (mb + a))).
Proof. intros Hc Hm Ha.
  destruct (customer_apply_spec cb a Hc Ha) as (C1 & C2 & C3).
  destruct (merchant_apply_spec mb a Hm Ha) as (M1 & M2 & M3).
  split; [|split; [|split; [|split; [|split]]]].
  - intros [H1 H2]. unfold apply_payment. now rewrite C1, M1.
  - intros cb' mb' H. now apply apply_payment_ok_inv.
  - intros H. unfold apply_payment. now rewrite C2.
  - intros H. unfold apply_payment. now rewrite C3.
  - intros H1 H2. unfold apply_payment. now rewrite C1, M2.
  - intros H1 H2. unfold apply_payment. now rewrite C1, M3. Qed.

Lemma apply_payment_cases cb mb a : 0 <= cb <= i64_max -> 0 <= mb <= i64_max -> is_i64 a ->
  (0 <= cb - a <= i64_max /\ 0 <= mb + a <= i64_max) /\ apply_payment cb mb a = Ok (cb - a, mb + a) \/
  ~ (0 <= cb - a <= i64_max /\ 0 <= mb + a <= i64_max) /\ exists e, apply_payment cb mb a = Err e.
Proof. intros Hc Hm Ha. destruct (apply_payment cb mb a) as [[cb' mb']|e] eqn:A.
  - left. destruct (apply_payment_ok_inv _ _ _ _ _ Hc Hm Ha A) as (-> & -> & R1 & R2 & _). auto.
  - right. split; [|eauto]. intros R. apply (apply_payment_spec cb mb a Hc Hm Ha) in R. congruence. Qed.

(** [try_add] never overflows - in either profile - given the decoder's invariant on both operands *)
Theorem try_add_spec pr mb cb : 0 <= mb <= i64_max -> 0 <= cb <= i64_max ->
  try_add pr mb cb = Val (balance_try_new (mb + cb)).
Proof. intros Hm Hc. unfold try_add, u64_add. unfold_ranges. destruct (Z.leb_spec (mb + cb) (2 ^ 64 - 1)); [reflexivity|lia]. Qed.

Section Enc.
Variable K : Fld.
Add Field AmountField : (Fth K).
Local Open Scope fld_scope.

(** the repaired encoding is total and is the ring image of the integer, for EVERY i64 (incl. i64::MIN) *)
Theorem amount_scalar_spec a : amount_scalar (K:=K) a = of_Z a.
Proof. unfold amount_scalar, i64_unsigned_abs. destruct (Z.ltb_spec a 0).
  - replace a with (- Z.abs a)%Z at 2 by lia. rewrite (of_Z_opp K). ring.
  - reflexivity. Qed.

Theorem pinned_agrees_elsewhere pr a : (i64_min < a <= i64_max)%Z -> amount_scalar_pinned (K:=K) pr a = Val (of_Z a).
Proof. intros Ha. unfold amount_scalar_pinned, i64_abs, wrap_u64. unfold_ranges. destruct (Z.ltb_spec a 0); [|reflexivity].
  destruct (Z.eqb_spec a (- 2 ^ 63)); [lia|]. rewrite Z.mod_small by lia.
  replace a with (- Z.abs a)%Z at 2 by lia. rewrite (of_Z_opp K). f_equal. ring. Qed.

Theorem encoding_homomorphic (b a : Z) :
  balance_scalar (K:=K) b - amount_scalar a = balance_scalar (b - a) /\ balance_scalar (K:=K) b + amount_scalar a = balance_scalar (b + a).
Proof. now rewrite amount_scalar_spec, (of_Z_sub K), (of_Z_add K). Qed.
End Enc.

Theorem amount_encoding_injective_on_i64 a a' : is_i64 a -> is_i64 a' -> amount_scalar (K:=Fq) a = amount_scalar a' -> a = a'.
Proof. intros Ha Ha' E. rewrite !(amount_scalar_spec Fq) in E.
  apply scalar_encoding_injective_within_q; [|exact E]. unfold is_i64, i64_min, i64_max in *.
  assert (Q : 2 ^ 64 < q_bls) by reflexivity. lia. Qed.

(** ** from the field equations of an accepted payment to integer arithmetic (BLS12-381 scalar field).
    What special soundness extracts (C02) is: the new balance is [horner] of nine digit messages, and equals the old balance
    minus / plus the encoded amount IN THE FIELD.  If the digit messages are genuine digits (each in [0,128): what the range
    key's signatures attest) and the old balance and the amount are in their machine ranges, the same holds over the integers:
    no wrap-around modulo q can hide an overdraft - exactly [a] moves from one integer balance to the other, both results
    stay in [0, 2^63-1], and the amount cannot exceed what the payer had. *)
Corollary accepted_payment_moves_exactly_the_amount (ocb omb a : Z) dsc dsm :
  (0 <= ocb <= i64_max)%Z -> (0 <= omb <= i64_max)%Z -> is_i64 a ->
  length dsc = 9%nat -> Forall (fun d => (0 <= d < 128)%Z) dsc ->
  length dsm = 9%nat -> Forall (fun d => (0 <= d < 128)%Z) dsm ->
  horner Fq (map (@of_Z Fq) dsc) = fsub (balance_scalar (K:=Fq) ocb) (amount_scalar a) ->
  horner Fq (map (@of_Z Fq) dsm) = fadd (balance_scalar (K:=Fq) omb) (amount_scalar a) ->
  zweighted dsc = (ocb - a)%Z /\ zweighted dsm = (omb + a)%Z /\
  (0 <= ocb - a <= i64_max)%Z /\ (0 <= omb + a <= i64_max)%Z /\ (zweighted dsc + zweighted dsm = ocb + omb)%Z.
Proof. intros Hc Hm Ha L1 F1 L2 F2 E1 E2.
  pose proof (digit_sum_bound dsc L1 F1) as R1. pose proof (digit_sum_bound dsm L2 F2) as R2.
  rewrite (horner_of_Z Fq), (proj1 (encoding_homomorphic Fq _ _)) in E1.
  rewrite (horner_of_Z Fq), (proj2 (encoding_homomorphic Fq _ _)) in E2.
  (* all four integers are below 2^65 in absolute value, and 2^66 < q *)
  assert (Q : 2 ^ 66 < q_bls) by reflexivity. unfold_ranges.
  apply scalar_encoding_injective_within_q in E1, E2; lia. Qed.
