From ZK Require Import Model.Field Model.Pedersen Model.PS Model.Range Model.Abacus Model.Amount Model.Customer
  Model.Merchant Model.Keygen Model.Protocol Proofs.KeygenProofs Proofs.FieldFacts Proofs.PSProofs
  Proofs.EstablishProofs Proofs.PayProofs Proofs.AmountProofs Proofs.MerchantProofs Proofs.CustomerProofs.
Local Open Scope fld_scope.

Section P.
Variable K : Fld.
Variable close_tag : K.
Variable chal : list (atom K) -> K.

Notation cmsg := (cmsg close_tag).
Notation pay_prove := (pay_prove close_tag chal).
Notation full_establish := (full_establish close_tag chal).
Notation full_payment := (full_payment close_tag chal).
Notation full_run := (full_run close_tag chal).

(** ** the hashed first message of a pay proof does not depend on the challenge the responses are made for *)
(* a digit proof's hashed part (blinded signature, C, T) is made before the challenge *)
Lemma range_chunks_indep (rp : rparams K) v ds c c' ps ps' :
  range_prove rp v ds c = Some ps -> range_prove rp v ds c' = Some ps' -> range_chunks ps = range_chunks ps'.
Proof. unfold range_prove. generalize (digits v). intros dz. (* or [injection] computes the nine digits *)
  destruct (v <? 0)%Z; [discriminate|]. intros [= <-] [= <-]. now apply flat_map_map2_ext. Qed.

Lemma pay_transcript_indep (pk : pkey K) rp hr gr tok old cbz mbz new d c c' p p' nonce ctx :
  pay_prove_with close_tag pk rp hr gr tok old cbz mbz new d c = Some p ->
  pay_prove_with close_tag pk rp hr gr tok old cbz mbz new d c' = Some p' ->
  pay_transcript close_tag pk rp nonce p ctx = pay_transcript close_tag pk rp nonce p' ctx.
Proof. unfold pay_prove_with.
  destruct (range_prove rp cbz (d_dsc d) c) eqn:E1; [|discriminate].
  destruct (range_prove rp mbz (d_dsm d) c) eqn:E2; [|discriminate].
  destruct (range_prove rp cbz (d_dsc d) c') eqn:E3; [|discriminate].
  destruct (range_prove rp mbz (d_dsm d) c') eqn:E4; [|discriminate].
  intros [= <-] [= <-]. unfold pay_transcript; cbn [p_rev p_sp p_csp p_tok p_crange p_mrange p_knonce p_kclose].
  now rewrite (range_chunks_indep _ _ _ _ _ _ _ E1 E3), (range_chunks_indep _ _ _ _ _ _ _ E2 E4). Qed.

(** ** completeness of the pay proof under Fiat-Shamir, for every hash function *)
Theorem pay_fiat_shamir_complete (pk : pkey K) rp hr gr (tok : sigt K) cid nonce lock ocb omb nn lock' cbz mbz eps d ctx :
  verify pk [cid; nonce; lock; ocb; omb] tok = true ->
  validate rp = true -> length (rp_sigs rp) = 128%nat ->
  (0 <= cbz < 2 ^ 63)%Z -> (0 <= mbz < 2 ^ 63)%Z ->
  of_Z cbz = ocb - eps -> of_Z mbz = omb + eps ->
  length (d_dsc d) = 9%nat -> length (d_dsm d) = 9%nat ->
  Forall (fun rd => rd_r rd <> f0) (d_dsc d) -> Forall (fun rd => rd_r rd <> f0) (d_dsm d) ->
  d_rt d <> f0 ->
  let old := [cid; nonce; lock; ocb; omb] in
  let new := [cid; nn; lock'; of_Z cbz; of_Z mbz] in
  exists p, pay_prove pk rp hr gr tok old cbz mbz new d ctx = Some p /\
    pay_verify close_tag chal pk rp hr gr nonce eps p ctx
    = Some (blind pk new (d_bfs d), blind pk [cid; close_tag; lock'; of_Z cbz; of_Z mbz] (d_bfc d),
            commit hr [gr] [lock] (d_bfr d)).
Proof. intros Htok Hval Hlen Hcb Hmb Ecb Emb L1 L2 R1 R2 Hrt old new. subst old new.
  pose proof (fun c => pay_complete K close_tag pk rp hr gr tok cid nonce lock ocb omb nn lock' cbz mbz eps d c
                         Htok Hval Hlen Hcb Hmb Ecb Emb L1 L2 R1 R2 Hrt) as C.
  destruct (C f0) as (p0 & P0 & _). unfold Protocol.pay_prove. rewrite P0.
  destruct (C (chal (pay_transcript close_tag pk rp nonce p0 ctx))) as (p & P & V).
  exists p. split; [exact P|]. unfold pay_verify. now rewrite (pay_transcript_indep _ _ _ _ _ _ _ _ _ _ _ _ _ _ _ _ P P0). Qed.

(** ** well-formedness of the parties and of the randomness of an honest run *)
Definition mconfig_ok (m : mconfig K) : Prop :=
  key_ok K (m_sk m) (m_pk m) /\ pk_g1 (m_pk m) <> f0 /\ validate (m_rp m) = true /\ length (rp_sigs (m_rp m)) = 128%nat.

Definition draws_ok (d : pdraws K) : Prop :=
  length (d_dsc d) = 9%nat /\ length (d_dsm d) = 9%nat /\
  Forall (fun rd => rd_r rd <> f0) (d_dsc d) /\ Forall (fun rd => rd_r rd <> f0) (d_dsm d) /\ d_rt d <> f0.

Definition attempt_ok (t : attempt K) : Prop :=
  is_i64 (at_amount t) /\ draws_ok (sd_pd (at_sd t)) /\ at_u1 t <> f0 /\ at_u2 t <> f0.

(** a customer that is [Ready] on channel [cid] with balances [l], holding a valid pay token and a valid closing signature *)
Definition ready_ok (pk : pkey K) (cid : K) (l : Z * Z) (st : stage K) : Prop :=
  exists s tok cs, st = Ready s tok cs /\ s_cid s = cid /\ (s_cb s, s_mb s) = l /\
    (0 <= s_cb s <= i64_max)%Z /\ (0 <= s_mb s <= i64_max)%Z /\
    verify pk (smsg s) tok = true /\ verify pk (cmsg s) cs = true.

Lemma ready_intro (pk : pkey K) s tok cs : (0 <= s_cb s <= i64_max)%Z -> (0 <= s_mb s <= i64_max)%Z ->
  verify pk (smsg s) tok = true -> verify pk (cmsg s) cs = true -> ready_ok pk (s_cid s) (s_cb s, s_mb s) (Ready s tok cs).
Proof. now exists s, tok, cs. Qed.

Theorem full_establish_completes (m : mconfig K) cid cb mb e ctx u1 u2 :
  mconfig_ok m -> length (ed_ks e) = 5%nat -> u1 <> f0 -> u2 <> f0 ->
  (0 <= cb <= i64_max)%Z -> (0 <= mb <= i64_max)%Z ->
  exists st, full_establish m cid cb mb e ctx u1 u2 = PDone st /\ ready_ok (m_pk m) cid (cb, mb) st.
Proof. intros (Hk & Hg & _ & _) Hl Hu1 Hu2 Rc Rm. unfold Protocol.full_establish, c_request, m_initialize, m_activate.
  rewrite (establish_fiat_shamir_complete K) by exact Hl.
  pose proof (fun ms bf u => blind_sign_unblind K (m_sk m) (m_pk m) u bf ms Hk Hg) as B.
  set (s := mkCS cid (ed_nonce e) (ed_lock e) cb mb).
  rewrite (step_complete K close_tag (m_pk m) s) by now apply B.
  rewrite (step_activate K close_tag (m_pk m) s) by now apply B.
  eexists; split; [reflexivity|]. apply (ready_intro (m_pk m) s); auto. Qed.

(** ** one payment: completes with exactly the integer balances when both stay in [0, 2^63-1] (and the customer again
    holds a valid token and closing signature, on the new state); otherwise the documented error, nothing sent, state kept *)
Definition in_range (l : Z * Z) (a : Z) : Prop :=
  (0 <= fst l - a <= i64_max)%Z /\ (0 <= snd l + a <= i64_max)%Z.

(** [Ready::start] on its two outcomes of [apply_payment] *)
Lemma c_start_ok pk rp hr gr s tok cs a sd ctx cb' mb' : apply_payment (s_cb s) (s_mb s) a = Ok (cb', mb') ->
  c_start close_tag chal pk rp hr gr (Ready s tok cs) a sd ctx =
  let d := sd_pd sd in let new := mkCS (s_cid s) (sd_nonce sd) (sd_lock sd) cb' mb' in
  (Started new s (d_bfr d) (d_bfs d) (d_bfc d) cs, OStart (s_nonce s),
   pay_prove pk rp hr gr tok (smsg s) cb' mb' (smsg new) d ctx).
Proof. intros A. unfold c_start. cbn [Customer.step]. now rewrite A. Qed.

Lemma c_start_err pk rp hr gr s tok cs a sd ctx e : apply_payment (s_cb s) (s_mb s) a = Err e ->
  c_start close_tag chal pk rp hr gr (Ready s tok cs) a sd ctx = (Ready s tok cs, OError e, None).
Proof. intros A. unfold c_start. cbn [Customer.step]. now rewrite A. Qed.

(** the merchant allows the payment an honest customer asks for: [pay_fiat_shamir_complete] for states *)
Lemma honest_payment_allowed (m : mconfig K) s tok a sd ctx u : mconfig_ok m -> verify (m_pk m) (smsg s) tok = true ->
  in_range (s_cb s, s_mb s) a -> draws_ok (sd_pd sd) ->
  let d := sd_pd sd in let new := mkCS (s_cid s) (sd_nonce sd) (sd_lock sd) (s_cb s - a) (s_mb s + a) in
  exists p, pay_prove (m_pk m) (m_rp m) (m_hr m) (m_gr m) tok (smsg s) (s_cb s - a) (s_mb s + a) (smsg new) d ctx = Some p /\
    m_allow_payment close_tag chal m a (s_nonce s) p ctx u
    = Some (mkU (commit (m_hr m) [m_gr m] [s_lock s] (d_bfr d)) (blind (m_pk m) (smsg new) (d_bfs d)),
            blind_sign (m_sk m) (m_pk m) u (blind (m_pk m) (cmsg new) (d_bfc d))).
Proof. intros (_ & _ & Hval & Hlen) Vt [B1 B2] (L1 & L2 & R1 & R2 & Hrt) d new. cbn [fst snd] in B1, B2. unfold i64_max in B1, B2.
  destruct (pay_fiat_shamir_complete (m_pk m) (m_rp m) (m_hr m) (m_gr m) tok _ _ _ _ _ (sd_nonce sd) (sd_lock sd)
              (s_cb s - a)%Z (s_mb s + a)%Z (amount_scalar a) d ctx Vt Hval Hlen) as (p & P & V); try assumption; try lia.
  - symmetry; apply (encoding_homomorphic K).
  - symmetry; apply (encoding_homomorphic K).
  - exists p. split; [exact P|]. unfold m_allow_payment. now rewrite V. Qed.

Theorem full_payment_spec (m : mconfig K) cid l st a sd ctx u1 u2 :
  mconfig_ok m -> ready_ok (m_pk m) cid l st -> is_i64 a -> draws_ok (sd_pd sd) -> u1 <> f0 -> u2 <> f0 ->
  (in_range l a -> exists st', full_payment m st a sd ctx u1 u2 = PDone st' /\
                               ready_ok (m_pk m) cid ((fst l - a)%Z, (snd l + a)%Z) st') /\
  (~ in_range l a -> exists e, full_payment m st a sd ctx u1 u2 = PAmountRefused st e).
Proof. intros Hm (s & tok & cs & -> & <- & <- & Rc & Rm & Vt & Vc) Ha Hd Hu1 Hu2. unfold Protocol.full_payment.
  pose proof (fun ms bf u => blind_sign_unblind K (m_sk m) (m_pk m) u bf ms (proj1 Hm) (proj1 (proj2 Hm))) as B.
  destruct (apply_payment_cases _ _ _ Rc Rm Ha) as [[R A]|[R [e A]]]; split; intros R'; try contradiction.
  - rewrite (c_start_ok _ _ _ _ _ _ _ _ _ _ _ _ A). cbv zeta.
    destruct (honest_payment_allowed m s tok a sd ctx u1 Hm Vt R Hd) as (p & -> & ->).
    set (new := mkCS (s_cid s) (sd_nonce sd) (sd_lock sd) (s_cb s - a) (s_mb s + a)).
    rewrite (step_lock K close_tag (m_pk m) new) by now apply B.
    unfold m_complete_payment. rewrite (honest_revocation_accepted K).
    rewrite (step_unlock K close_tag (m_pk m) new) by now apply B.
    eexists; split; [reflexivity|]. apply (ready_intro (m_pk m) new); auto; apply R.
  - rewrite (c_start_err _ _ _ _ _ _ _ _ _ _ _ A). eauto. Qed.

Lemma ledger_step_cases l a :
  in_range l a /\ ledger_step l a = ((fst l - a)%Z, (snd l + a)%Z) \/ ~ in_range l a /\ ledger_step l a = l.
Proof. destruct l as [cb mb]. unfold ledger_step, in_range. cbn [fst snd].
  destruct (_ && _) eqn:E; [left | right]; (split; [|reflexivity]).
  - rewrite !andb_true_iff, !Z.leb_le in E. lia.
  - rewrite <- not_true_iff_false, !andb_true_iff, !Z.leb_le in E. lia. Qed.

(** ** every list of payment attempts: the run never gets stuck and ends Ready with exactly the ideal ledger's balances *)
Theorem full_run_tracks_ledger (m : mconfig K) cid : mconfig_ok m -> forall ats l st,
  Forall attempt_ok ats -> ready_ok (m_pk m) cid l st ->
  exists st', full_run m st ats = PDone st' /\ ready_ok (m_pk m) cid (ledger_run l (map (@at_amount K) ats)) st'.
Proof. intros Hm. induction ats as [|t ats IH]; intros l st Hf Hr; [now exists st|].
  inversion Hf as [|t' ats' (Ha & Hd & Hu1 & Hu2) Hf']; subst. cbn [Protocol.full_run].
  destruct (full_payment_spec m cid l st _ (at_sd t) (at_ctx t) _ _ Hm Hr Ha Hd Hu1 Hu2) as [Hin Hout].
  destruct (ledger_step_cases l (at_amount t)) as [[D E]|[D E]].
  - destruct (Hin D) as (st' & -> & Hr'). rewrite <- E in Hr'. exact (IH _ _ Hf' Hr').
  - destruct (Hout D) as (e & ->). rewrite <- E in Hr. exact (IH _ _ Hf' Hr). Qed.

Lemma ledger_run_invariant amounts : forall l, (0 <= fst l <= i64_max)%Z -> (0 <= snd l <= i64_max)%Z ->
  let l' := ledger_run l amounts in
  (fst l' + snd l' = fst l + snd l)%Z /\ (0 <= fst l' <= i64_max)%Z /\ (0 <= snd l' <= i64_max)%Z.
Proof. induction amounts as [|a amounts IH]; intros l R1 R2; [cbn [ledger_run fold_left]; lia|].
  assert (St : (fst (ledger_step l a) + snd (ledger_step l a) = fst l + snd l)%Z /\
              (0 <= fst (ledger_step l a) <= i64_max)%Z /\ (0 <= snd (ledger_step l a) <= i64_max)%Z)
    by (destruct (ledger_step_cases l a) as [[[D1 D2] ->]|[_ ->]]; cbn [fst snd]; lia).
  destruct St as (E & R1' & R2'). specialize (IH _ R1' R2'). rewrite <- E. exact IH. Qed.

(** ** the whole life of a channel: establishment, any list of payment attempts, then close - accepted, with the ledger's
    balances *)
Theorem channel_lifecycle (m : mconfig K) cid cb mb e ctx u1 u2 ats rho :
  mconfig_ok m -> length (ed_ks e) = 5%nat -> u1 <> f0 -> u2 <> f0 ->
  (0 <= cb <= i64_max)%Z -> (0 <= mb <= i64_max)%Z -> Forall attempt_ok ats -> rho <> f0 ->
  exists st0 st, full_establish m cid cb mb e ctx u1 u2 = PDone st0 /\ full_run m st0 ats = PDone st /\
    let l := ledger_run (cb, mb) (map (@at_amount K) ats) in
    ready_ok (m_pk m) cid l st /\
    exists sig s, close_of st rho = Some (sig, s) /\ check_close close_tag (m_pk m) sig s = true /\
                  s_cid s = cid /\ (s_cb s, s_mb s) = l /\ (fst l + snd l = cb + mb)%Z.
Proof. intros Hm Hl Hu1 Hu2 Rc Rm Hf Hrho.
  destruct (full_establish_completes m cid cb mb e ctx u1 u2 Hm Hl Hu1 Hu2 Rc Rm) as (st0 & E0 & R0).
  destruct (full_run_tracks_ledger m cid Hm ats (cb, mb) st0 Hf R0) as (st & E1 & R1).
  exists st0, st. split; [exact E0|]. split; [exact E1|]. split; [exact R1|].
  destruct R1 as (s & tok & cs & -> & Hcid & Hlq & _ & _ & _ & Vc).
  exists (randomize rho cs), s. split; [reflexivity|].
  split; [now apply (randomize_nonzero_verifies K)|]. split; [exact Hcid|]. split; [exact Hlq|].
  destruct (ledger_run_invariant (map (@at_amount K) ats) (cb, mb)) as (I & _); cbn [fst snd] in *; try lia. Qed.

(** ** a generated merchant configuration is fit for honest runs: for every choice of streams in which the generators find
    enough non-identity / non-zero draws, [merchant::Config::new] yields a configuration satisfying [mconfig_ok] - so
    [channel_lifecycle] applies to it (C19 feeds C04) *)
Theorem generated_config_ok g1s scalars g2s rev_draws rg1s rscalars rg2s bases m :
  merchant_config_new g1s scalars g2s rev_draws rg1s rscalars rg2s bases = Some m ->
  mconfig_ok m /\ m_hr m <> f0 /\ m_gr m <> f0 /\ length (pk_y1s (m_pk m)) = 5%nat /\ length (pk_y2s (rp_pk (m_rp m))) = 1%nat.
Proof. unfold merchant_config_new.
  destruct (keygen_stream 5 _ _ _) as [[sk pk]|] eqn:E1; [|discriminate].
  destruct (pedersen_new_stream 1 _) as [[hr [|gr [|? ?]]]|] eqn:E2; try discriminate.
  destruct (keygen_stream 1 _ _ _) as [[rsk rpk]|] eqn:E3; [|discriminate].
  destruct (take_nonzero 128 _) as [[hs rest]|] eqn:E4; [|discriminate]. intros [= <-].
  apply (keygen_wf K) in E1 as (L1 & _ & _ & Hk & Hg & _), E3 as (L3 & _ & _ & Hrk & _).
  apply (take_nonzero_spec K) in E4 as [L4 F4]. apply (pedersen_new_wf K) in E2 as [_ W].
  destruct (range_params_new_valid K rsk rpk hs Hrk F4) as [V LV].
  apply (params_wf_nz K), Forall_cons_iff in W as [W1 [W2 _]%Forall_cons_iff].
  pose proof Hk as (_ & _ & _ & Hy1 & _). pose proof Hrk as (_ & _ & Hy2 & _).
  unfold mconfig_ok. cbn [m_sk m_pk m_hr m_gr m_rp]. change (rp_pk (range_params_new rsk rpk hs)) with rpk.
  rewrite LV, Hy1, Hy2, !map_length.
  exact (conj (conj Hk (conj Hg (conj V L4))) (conj W1 (conj W2 (conj L1 L3)))). Qed.

End P.
