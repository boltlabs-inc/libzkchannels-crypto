From ZK Require Import Model.Field Model.Pedersen Proofs.FieldFacts.
Local Open Scope fld_scope.

Section P.
Variable K : Fld.
Add Field PedersenField : (Fth K).

Lemma verify_opening_iff (h : K) gs c bf ms :
  verify_opening h gs c bf ms = true <-> commit h gs ms bf = c.
Proof. apply feqb_ok. Qed.

Lemma opening_accepts_original (h : K) gs bf ms :
  verify_opening h gs (commit h gs ms bf) bf ms = true.
Proof. apply verify_opening_iff. reflexivity. Qed.

Lemma commit_map2_lin (f : K -> K -> K) (a b : K) : (forall x y, f x y = a * x + b * y) ->
  forall (h : K) gs ms ks bf kbf, length ms = length ks ->
  commit h gs (map2 f ms ks) (f bf kbf) = a * commit h gs ms bf + b * commit h gs ks kbf.
Proof. intros Hf h gs ms ks bf kbf H. unfold commit. rewrite (ip_map2_lin K f a b Hf), Hf by assumption. ring. Qed.

Lemma commit_add (h : K) gs ms ms' bf bf' : length ms = length ms' ->
  commit h gs (map2 fadd ms ms') (bf + bf') = commit h gs ms bf + commit h gs ms' bf'.
Proof. intros H. rewrite (commit_map2_lin fadd f1 f1) by (assumption || intros; ring). ring. Qed.

Lemma commit_upd (h : K) gs ms bf j v : (j < length ms)%nat -> (j < length gs)%nat ->
  commit h gs (upd j v ms) bf = commit h gs ms bf + nth j gs f0 * (v - nth j ms f0).
Proof. intros. unfold commit. rewrite (ip_upd K) by assumption. ring. Qed.

Lemma single_coordinate_iff (h : K) gs ms bf j v :
  (j < length ms)%nat -> (j < length gs)%nat ->
  (verify_opening h gs (commit h gs ms bf) bf (upd j v ms) = true <->
   nth j gs f0 = f0 \/ v = nth j ms f0).
Proof. intros Hm Hg. rewrite verify_opening_iff. apply (eq_iff_factor K). rewrite commit_upd by assumption. ring. Qed.

Lemma single_coordinate_rejects (h : K) gs ms bf j v :
  (j < length ms)%nat -> (j < length gs)%nat -> nth j gs f0 <> f0 -> v <> nth j ms f0 ->
  verify_opening h gs (commit h gs ms bf) bf (upd j v ms) = false.
Proof. intros Hm Hg Hgj Hv. apply not_true_is_false. rewrite single_coordinate_iff by assumption. tauto. Qed.

Lemma commit_inj_bf (h : K) gs ms bf bf' : h <> f0 -> commit h gs ms bf = commit h gs ms bf' -> bf = bf'.
Proof. intros Hh E. apply (factor_inj K h bf bf' _ _ E Hh). unfold commit. ring. Qed.

Lemma wrong_bf_rejects (h : K) gs ms bf bf' : h <> f0 -> bf' <> bf ->
  verify_opening h gs (commit h gs ms bf) bf' ms = false.
Proof. intros Hh Hb. apply (feqb_false K). intros E. exact (Hb (commit_inj_bf h gs ms bf' bf Hh E)). Qed.

(** degenerate inputs: the map is the same formula when the blinding factor, or every message entry, is zero - no term is
    dropped together with another one *)
Lemma commit_zero_bf (h : K) gs ms : commit h gs ms f0 = ip gs ms.
Proof. unfold commit. ring. Qed.

Lemma commit_zero_message (h : K) gs n bf : commit h gs (repeat f0 n) bf = h * bf.
Proof. unfold commit. rewrite ip_zero_r. ring. Qed.

End P.
