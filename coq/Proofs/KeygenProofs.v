From ZK Require Import Model.Field Model.Pedersen Model.PS Model.Range Model.Keygen Proofs.FieldFacts Proofs.PSProofs.
Local Open Scope fld_scope.

Section P.
Variable K : Fld.

Lemma next_nonzero_spec (draws : list K) x rest : next_nonzero draws = Some (x, rest) ->
  x <> f0 /\ exists pre, draws = pre ++ x :: rest /\ Forall (fun y => y = f0) pre.
Proof. intros (pre & x' & post & -> & [= -> ->] & Hx & Hpre)%(retry_spec (fun y => fneqb y f0) pair _ eq_refl (fun _ _ => eq_refl)).
  split; [now apply (fneqb_true K)|]. exists pre. split; [reflexivity|].
  eapply Forall_impl; [|exact Hpre]. intros y. apply (fneqb_false K). Qed.

Lemma next_nonzero_some (draws : list K) : (exists y, In y draws /\ y <> f0) -> exists r, next_nonzero draws = Some r.
Proof. intros (y & Hy & Hne%(fneqb_true K)). apply (retry_some (fun y => fneqb y f0) pair _ (fun _ _ => eq_refl)). eauto. Qed.

Lemma take_nonzero_spec n (draws : list K) xs rest : take_nonzero n draws = Some (xs, rest) ->
  length xs = n /\ Forall (fun x => x <> f0) xs.
Proof. revert draws xs rest; induction n as [|n IH]; intros draws xs rest; simpl.
  - intros [= <- <-]. auto.
  - destruct (next_nonzero draws) as [[x r]|] eqn:E; [|discriminate].
    destruct (take_nonzero n r) as [[xs' r']|] eqn:E2; [|discriminate].
    intros [= <- <-]. destruct (IH _ _ _ E2) as [L F]. apply next_nonzero_spec in E as [Hx _].
    split; [simpl; congruence | constructor; assumption]. Qed.

(** the decoders' boolean "no identity element" is [Forall (fun x => x <> f0)] *)
Lemma forallb_nz (l : list K) : forallb (fun x => fneqb x f0) l = true <-> Forall (fun x => x <> f0) l.
Proof. rewrite forallb_forall, Forall_forall. split; intros H x Hx; apply (fneqb_true K), H, Hx. Qed.

Lemma params_wf_nz (h : K) gs : params_wf h gs = true <-> Forall (fun x => x <> f0) (h :: gs).
Proof. exact (forallb_nz (h :: gs)). Qed.

Lemma nz_map_mul (g : K) (l : list K) : g <> f0 -> Forall (fun x => x <> f0) l -> Forall (fun x => x <> f0) (map (fun y => g * y) l).
Proof. intros Hg. induction 1; constructor; auto. now apply (fmul_neq0 K). Qed.

Lemma keygen_nz (g1 x : K) ys g2 : g1 <> f0 -> g2 <> f0 -> Forall (fun x => x <> f0) (x :: ys) ->
  sk_wf (fst (keygen g1 x ys g2)) = true /\ pk_wf (snd (keygen g1 x ys g2)) = true.
Proof. intros H1 H2 F. inversion F as [|? ? Hx Hys]. unfold sk_wf, pk_wf; simpl.
  rewrite !andb_true_iff, !(fneqb_true K), !forallb_nz. auto 10 using (fmul_neq0 K), nz_map_mul. Qed.

(** for every triple of streams in which enough non-zero draws occur: the key is well formed *)
Theorem keygen_wf n (g1s scalars g2s : list K) sk pk : keygen_stream n g1s scalars g2s = Some (sk, pk) ->
  length (sk_ys sk) = n /\ sk_wf sk = true /\ pk_wf pk = true /\ key_ok K sk pk /\ pk_g1 pk <> f0 /\
  (forall h ms, h <> f0 -> verify pk ms (sign sk h ms) = true).
Proof. unfold keygen_stream.
  destruct (next_nonzero g1s) as [[g1 r1]|] eqn:E1; [|discriminate].
  destruct (take_nonzero (S n) scalars) as [[[|x ys] r2]|] eqn:E2; try discriminate.
  destruct (next_nonzero g2s) as [[g2 r3]|] eqn:E3; [|discriminate].
  intros [= <- <-]. apply next_nonzero_spec in E1 as [E1 _], E3 as [E3 _]. apply take_nonzero_spec in E2 as [L F].
  pose proof (keygen_ok K g1 x ys g2 E3) as Hk. destruct (keygen_nz g1 x ys g2 E1 E3 F) as [Ws Wp].
  repeat split; try assumption; [now injection L|]. intros h ms. now apply (sign_verifies K _ _ h ms Hk). Qed.

Theorem pedersen_new_wf n (gdraws : list K) h gs : pedersen_new_stream n gdraws = Some (h, gs) ->
  length gs = n /\ params_wf h gs = true.
Proof. unfold pedersen_new_stream. destruct (take_nonzero (S n) gdraws) as [[[|x xs] r]|] eqn:E; try discriminate.
  intros [= <- <-]. apply take_nonzero_spec in E as [L F]. split; [now injection L | now apply params_wf_nz]. Qed.

Lemma sign_digits_valid (sk : skey K) (pk : pkey K) i hs : key_ok K sk pk -> Forall (fun h => h <> f0) hs ->
  validate_go pk i (sign_digits sk i hs) = true.
Proof. intros Hk F. revert i. induction F as [|h hs Hh _ IH]; intros i; [reflexivity|].
  apply andb_true_iff. split; [now apply (sign_verifies K sk pk)|apply IH]. Qed.

Lemma sign_digits_length (sk : skey K) i hs : length (sign_digits sk i hs) = length hs.
Proof. revert i; induction hs as [|h hs IH]; intros i; simpl; congruence. Qed.

Theorem range_params_new_valid (sk : skey K) (pk : pkey K) hs : key_ok K sk pk -> Forall (fun h => h <> f0) hs ->
  validate (range_params_new sk pk hs) = true /\ length (rp_sigs (range_params_new sk pk hs)) = length hs.
Proof. intros Hk F. split; [now apply sign_digits_valid | apply sign_digits_length]. Qed.

End P.
