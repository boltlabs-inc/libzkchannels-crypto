From ZK Require Import Model.Field Model.PS Model.Schnorr Model.Abacus Model.Pinned Proofs.EstablishProofs.
Local Open Scope fld_scope.

Section P.
Variable K : Fld.
Variable close_tag : K.
Variable chal : list (atom K) -> K.
Add Field PinnedField : (Fth K).

(** D1, establish: with the pinned transcript EVERY pair of hidden messages that is consistent with itself
    (same channel id, lock and balances in state and close state - whatever they are, whatever sits in the close-tag
    slot) is accepted for ANY agreed channel id and balances *)
Theorem pinned_establish_forgery (pk : pkey K) cid cb mb m0 m1 m2 m3 m4 c1 bfs kbfs k0 k1 k2 k3 k4 bfc kbfc kc1 ctx :
  let ms := [m0; m1; m2; m3; m4] in let mc := [m0; c1; m2; m3; m4] in
  let ks := [k0; k1; k2; k3; k4] in let kc := [k0; kc1; k2; k3; k4] in
  establish_verify_pinned close_tag chal pk cid cb mb (forge close_tag chal pk cid cb mb ms mc bfs kbfs ks bfc kbfc kc ctx) ctx
  = Some (blind pk ms bfs, blind pk mc bfc).
Proof. apply (establish_verify_spec K close_tag). split; [|reflexivity].
  apply (establish_rel_responses K close_tag); unfold rs_at, req_prove, cp_prove, cp_respond; cbn [cp_rs map2 nth];
    (* the challenge the verifier computes is the one the forger answered: the revealed scalars are not hashed *)
    set (c := chal _); change (chal _) with c; ring. Qed.

(** in particular: hidden balances (cb + d, mb - d) for agreed (cb, mb) - the replay of DESIGN.md section 7 *)
Corollary pinned_establish_accepts_other_balances (pk : pkey K) (cid nonce lock cb mb d bfs kbfs k0 k1 k2 k3 k4 bfc kbfc kc1 : K) ctx :
  exists p, establish_verify_pinned close_tag chal pk cid cb mb p ctx
            = Some (blind pk (state_msg cid nonce lock (cb + d) (mb - d)) bfs,
                    blind pk (close_msg close_tag cid lock (cb + d) (mb - d)) bfc).
Proof. eexists. apply (pinned_establish_forgery pk cid cb mb cid nonce lock (cb + d) (mb - d) close_tag
                          bfs kbfs k0 k1 k2 k3 k4 bfc kbfc kc1 ctx). Qed.

End P.
