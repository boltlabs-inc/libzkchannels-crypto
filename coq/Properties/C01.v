(** C01 — Merchant establishes only channels whose hidden state matches the agreed values.
    Partial: exact relation, special soundness, transcript binding and blind-signature correctness
    are proved; the rewinding step to "no efficient prover" is not formalised (DESIGN.md section 6). *)
From ZK Require Import Model.Field Model.QBls Model.PS Model.Schnorr Model.Abacus Model.Pinned Proofs.PSProofs
  Proofs.EstablishProofs Proofs.ChallengeProofs Proofs.PinnedProofs.
Local Open Scope fld_scope.

(** the merchant accepts exactly the two Schnorr relations and the eight response-scalar equations,
    and hands over the proof's own two commitments for blind signing *)
Theorem C01_establish_verify_spec : forall (K : Fld) (close_tag : K) (pk : pkey K) cid cb mb (p : eproof K) c v,
  establish_verify_with close_tag pk cid cb mb p c = Some v <->
  establish_rel K close_tag pk cid cb mb p c /\ v = (cp_C (e_sp p), cp_C (e_csp p)).
Proof. exact establish_verify_spec. Qed.

(** whoever can answer two challenges for one first message holds openings of both commitments whose
    slots are exactly the agreed channel id and balances, one shared lock, and the close tag *)
Theorem C01_establish_special_soundness : forall (K : Fld) (close_tag : K) (pk : pkey K) cid cb mb (p p' : eproof K) c c',
  c - c' <> f0 -> length (pk_y1s pk) = 5%nat ->
  length (cp_rs (e_sp p)) = 5%nat -> length (cp_rs (e_sp p')) = 5%nat ->
  length (cp_rs (e_csp p)) = 5%nat -> length (cp_rs (e_csp p')) = 5%nat ->
  same_first_message K p p' ->
  establish_rel K close_tag pk cid cb mb p c -> establish_rel K close_tag pk cid cb mb p' c' ->
  let d := c - c' in
  let ms := xs K d (e_sp p) (e_sp p') in let mc := xs K d (e_csp p) (e_csp p') in
  cp_C (e_sp p) = blind pk ms (xbf K d (e_sp p) (e_sp p')) /\
  cp_C (e_csp p) = blind pk mc (xbf K d (e_csp p) (e_csp p')) /\
  nth 0 ms f0 = cid /\ nth 0 mc f0 = cid /\ nth 1 mc f0 = close_tag /\ nth 2 ms f0 = nth 2 mc f0 /\
  nth 3 ms f0 = cb /\ nth 3 mc f0 = cb /\ nth 4 ms f0 = mb /\ nth 4 mc f0 = mb.
Proof. exact establish_special_soundness. Qed.

(** "first message" is what is hashed: the transcript determines the key, the agreed values, both
    (C, T) pairs, the four revealed commitment scalars and the context *)
Theorem C01_establish_transcript_binds : forall (K : Fld) (close_tag : K) (pk pk' : pkey K)
    cid cb mb cid' cb' mb' (p p' : eproof K) ctx ctx',
  length (pk_y1s pk) = length (pk_y1s pk') -> length (pk_y2s pk) = length (pk_y2s pk') ->
  establish_transcript close_tag pk cid cb mb p ctx = establish_transcript close_tag pk' cid' cb' mb' p' ctx' ->
  pk = pk' /\ cid = cid' /\ cb = cb' /\ mb = mb' /\
  cp_C (e_sp p) = cp_C (e_sp p') /\ cp_T (e_sp p) = cp_T (e_sp p') /\
  cp_C (e_csp p) = cp_C (e_csp p') /\ cp_T (e_csp p) = cp_T (e_csp p') /\
  e_kcid p = e_kcid p' /\ e_kclose p = e_kclose p' /\ e_kcb p = e_kcb p' /\ e_kmb p = e_kmb p' /\ ctx = ctx'.
Proof. exact establish_transcript_binds. Qed.

(** what the merchant then signs unblinds to signatures on exactly the opened messages ... *)
Theorem C01_establish_then_sign : forall (K : Fld) (sk : skey K) (pk : pkey K) ms bf u,
  key_ok K sk pk -> pk_g1 pk <> f0 -> u <> f0 ->
  verify pk ms (unblind bf (blind_sign sk pk u (blind pk ms bf))) = true.
Proof. exact establish_then_sign. Qed.

(** ... and on no message differing in one slot *)
Theorem C01_signature_on_no_other_slot : forall (K : Fld) (pk : pkey K) ms s j v,
  verify pk ms s = true -> (j < length ms)%nat -> (j < length (pk_y2s pk))%nat ->
  nth j (pk_y2s pk) f0 <> f0 -> v <> nth j ms f0 -> verify pk (upd j v ms) s = false.
Proof. exact single_coordinate_rejects. Qed.

(** completeness with the Fiat-Shamir challenge, for every hash function *)
Theorem C01_honest_proof_accepted : forall (K : Fld) (close_tag : K) (chal : list (atom K) -> K) (pk : pkey K)
    cid nonce lock cb mb bfs kbfs ks bfc kbfc kclose ctx,
  length ks = 5%nat ->
  establish_verify close_tag chal pk cid cb mb
    (establish_prove close_tag chal pk cid nonce lock cb mb bfs kbfs ks bfc kbfc kclose ctx) ctx
  = Some (blind pk (state_msg cid nonce lock cb mb) bfs, blind pk (close_msg close_tag cid lock cb mb) bfc).
Proof. exact establish_fiat_shamir_complete. Qed.

(** REFUTATION of the pinned code (D1, repaired by /repo commit e01599f): when the four revealed commitment scalars are
    not hashed, every self-consistent hidden (state, close state) pair - any balances, any channel id, anything in the
    close-tag slot - is accepted for any agreed values, for every hash function *)
Theorem C01_pinned_establish_forgery_refuted : forall (K : Fld) (close_tag : K) (chal : list (atom K) -> K) (pk : pkey K)
    cid cb mb m0 m1 m2 m3 m4 c1 bfs kbfs k0 k1 k2 k3 k4 bfc kbfc kc1 ctx,
  let ms := [m0; m1; m2; m3; m4] in let mc := [m0; c1; m2; m3; m4] in
  let ks := [k0; k1; k2; k3; k4] in let kc := [k0; kc1; k2; k3; k4] in
  establish_verify_pinned close_tag chal pk cid cb mb (forge close_tag chal pk cid cb mb ms mc bfs kbfs ks bfc kbfc kc ctx) ctx
  = Some (blind pk ms bfs, blind pk mc bfc).
Proof. exact pinned_establish_forgery. Qed.

Example C01_nonvacuous :
  let kp := keygen (fq 11) (fq 17) [fq 19; fq 23; fq 29; fq 31; fq 37] (fq 13) in
  let p := establish_prove_with (fq 77) (snd kp) (fq 5) (fq 6) (fq 7) (fq 10) (fq 1000) (fq 41) (fq 43)
             [fq 51; fq 52; fq 53; fq 54; fq 55] (fq 61) (fq 63) (fq 71) (fq 999) in
  (exists v, establish_verify_with (fq 77) (snd kp) (fq 5) (fq 10) (fq 1000) p (fq 999) = Some v) /\
  establish_verify_with (fq 77) (snd kp) (fq 5) (fq 1010) (fq 0) p (fq 999) = None /\
  establish_verify_with (fq 77) (snd kp) (fq 5) (fq 10) (fq 1000) p (fq 998) = None.
Proof. vm_compute. split; [eexists; reflexivity | auto]. Qed.

Print Assumptions C01_establish_verify_spec.
Print Assumptions C01_establish_special_soundness.
Print Assumptions C01_establish_transcript_binds.
Print Assumptions C01_establish_then_sign.
Print Assumptions C01_signature_on_no_other_slot.
Print Assumptions C01_honest_proof_accepted.
Print Assumptions C01_pinned_establish_forgery_refuted.
Print Assumptions C01_nonvacuous.
