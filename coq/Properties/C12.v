(** C12 — Challenges bind every first-message element and match for prover and verifier. *)
From ZK Require Import Model.Field Model.QBls Model.PS Model.Schnorr Model.Range Model.Abacus Model.Pinned
  Proofs.FieldFacts Proofs.SchnorrProofs Proofs.ChallengeProofs.
Local Open Scope fld_scope.

(** builder and finished proof feed the same chunks *)
Theorem C12_builder_proof_transcript_eq : forall (K : Fld) (h : K) gs ms bf kbf ks c,
  cp_transcript (cp_prove h gs ms bf kbf ks c) = cp_builder_transcript (cp_commit_phase h gs ms bf kbf ks).
Proof. exact builder_proof_transcript_eq. Qed.

(** the transcript hashed by the prover (before responses exist) is the verifier's transcript *)
Theorem C12_establish_prover_verifier_same_transcript : forall (K : Fld) (close_tag : K) (pk : pkey K)
    cid nonce lock cb mb bfs kbfs ks bfc kbfc kclose c ctx,
  establish_transcript close_tag pk cid cb mb
    (establish_prove_with close_tag pk cid nonce lock cb mb bfs kbfs ks bfc kbfc kclose c) ctx
  = establish_transcript close_tag pk cid cb mb
      (establish_first close_tag pk cid nonce lock cb mb bfs kbfs ks bfc kbfc kclose) ctx.
Proof. reflexivity. Qed.

(** chunk lists of fixed-width chunks concatenate injectively: equal hashed byte strings give equal chunks *)
Theorem C12_concat_chunks_injective : forall (A : Type) (enc : A -> list Z) (width : A -> nat),
  (forall a, length (enc a) = width a) ->
  forall l l', Forall2 (fun a a' => width a = width a') l l' ->
  flat_map enc l = flat_map enc l' -> map enc l = map enc l'.
Proof. intros A enc width W l l' F H. apply (flat_map_app_inj enc enc l l' [] []); [auto | | now rewrite !app_nil_r].
  clear H. induction F; constructor; rewrite ?W; auto. Qed.

Theorem C12_public_key_chunks_injective : forall (K : Fld) (pk pk' : pkey K),
  length (pk_y1s pk) = length (pk_y1s pk') -> pk_chunks pk = pk_chunks pk' -> pk = pk'.
Proof. exact pk_chunks_injective. Qed.

Theorem C12_range_parameter_chunks_injective : forall (K : Fld) (rp rp' : rparams K) (r r' : list (atom K)),
  length (rp_sigs rp) = length (rp_sigs rp') ->
  length (pk_y1s (rp_pk rp)) = length (pk_y1s (rp_pk rp')) ->
  length (pk_y2s (rp_pk rp)) = length (pk_y2s (rp_pk rp')) ->
  rp_chunks rp ++ r = rp_chunks rp' ++ r' -> rp = rp' /\ r = r'.
Proof. exact rp_chunks_app_inj. Qed.

Theorem C12_range_constraint_chunks_injective : forall (K : Fld) (ps ps' : list (sproof K)),
  length ps = length ps' -> range_chunks ps = range_chunks ps' -> map (sp_first K) ps = map (sp_first K) ps'.
Proof. intros K ps ps' L H. apply (range_chunks_app_inj K ps ps' [] [] L). now rewrite !app_nil_r. Qed.

(** no field of an establish proof other than a response scalar can change without changing the transcript *)
Theorem C12_establish_transcript_binds : forall (K : Fld) (close_tag : K) (pk pk' : pkey K)
    cid cb mb cid' cb' mb' (p p' : eproof K) ctx ctx',
  length (pk_y1s pk) = length (pk_y1s pk') -> length (pk_y2s pk) = length (pk_y2s pk') ->
  establish_transcript close_tag pk cid cb mb p ctx = establish_transcript close_tag pk' cid' cb' mb' p' ctx' ->
  pk = pk' /\ cid = cid' /\ cb = cb' /\ mb = mb' /\
  cp_C (e_sp p) = cp_C (e_sp p') /\ cp_T (e_sp p) = cp_T (e_sp p') /\
  cp_C (e_csp p) = cp_C (e_csp p') /\ cp_T (e_csp p) = cp_T (e_csp p') /\
  e_kcid p = e_kcid p' /\ e_kclose p = e_kclose p' /\ e_kcb p = e_kcb p' /\ e_kmb p = e_kmb p' /\ ctx = ctx'.
Proof. exact establish_transcript_binds. Qed.

Theorem C12_pay_transcript_binds : forall (K : Fld) (close_tag : K) (pk pk' : pkey K) (rp rp' : rparams K)
    nonce nonce' (p p' : pproof K) ctx ctx',
  length (pk_y1s pk) = length (pk_y1s pk') -> length (pk_y2s pk) = length (pk_y2s pk') ->
  length (rp_sigs rp) = length (rp_sigs rp') ->
  length (pk_y1s (rp_pk rp)) = length (pk_y1s (rp_pk rp')) ->
  length (pk_y2s (rp_pk rp)) = length (pk_y2s (rp_pk rp')) ->
  length (p_crange p) = length (p_crange p') -> length (p_mrange p) = length (p_mrange p') ->
  pay_transcript close_tag pk rp nonce p ctx = pay_transcript close_tag pk' rp' nonce' p' ctx' ->
  pk = pk' /\ rp = rp' /\ nonce = nonce' /\
  cp_C (p_rev p) = cp_C (p_rev p') /\ cp_T (p_rev p) = cp_T (p_rev p') /\
  cp_C (p_sp p) = cp_C (p_sp p') /\ cp_T (p_sp p) = cp_T (p_sp p') /\
  cp_C (p_csp p) = cp_C (p_csp p') /\ cp_T (p_csp p) = cp_T (p_csp p') /\
  sp_first K (p_tok p) = sp_first K (p_tok p') /\
  map (sp_first K) (p_crange p) = map (sp_first K) (p_crange p') /\
  map (sp_first K) (p_mrange p) = map (sp_first K) (p_mrange p') /\
  p_knonce p = p_knonce p' /\ p_kclose p = p_kclose p' /\ ctx = ctx'.
Proof. exact pay_transcript_binds. Qed.

(** "the challenge changes": two different transcripts with one challenge are an explicit collision of the
    hash-to-scalar map, for whatever hash is used *)
Theorem C12_same_challenge_is_collision : forall (K : Fld) (chal : list (atom K) -> K) t t',
  t <> t' -> chal t = chal t' -> exists a b, a <> b /\ chal a = chal b.
Proof. intros K chal t t' H E. exists t, t'. auto. Qed.

(** REFUTATIONS of the pinned transcripts (D1): proofs differing in a revealed commitment scalar hashed to the same string *)
Theorem C12_pinned_establish_binds_refuted : forall (K : Fld) (close_tag : K) (pk : pkey K) cid cb mb (p : eproof K) ctx k',
  establish_transcript_pinned close_tag pk cid cb mb p ctx
  = establish_transcript_pinned close_tag pk cid cb mb (mkEP k' (e_kclose p) (e_kcb p) (e_kmb p) (e_sp p) (e_csp p)) ctx.
Proof. reflexivity. Qed.

Theorem C12_pinned_pay_binds_refuted : forall (K : Fld) (close_tag : K) (pk : pkey K) rp nonce (p : pproof K) ctx k',
  pay_transcript_pinned close_tag pk rp nonce p ctx
  = pay_transcript_pinned close_tag pk rp nonce
      (mkPP k' (p_kclose p) (p_tok p) (p_rev p) (p_sp p) (p_csp p) (p_crange p) (p_mrange p)) ctx.
Proof. reflexivity. Qed.

Example C12_nonvacuous :
  let kp := keygen (fq 11) (fq 17) [fq 19; fq 23; fq 29; fq 31; fq 37] (fq 13) in
  let p := establish_prove_with (fq 77) (snd kp) (fq 5) (fq 6) (fq 7) (fq 10) (fq 1000) (fq 41) (fq 43)
             [fq 51; fq 52; fq 53; fq 54; fq 55] (fq 61) (fq 63) (fq 71) (fq 999) in
  let p' := mkEP (e_kcid p + fq 1) (e_kclose p) (e_kcb p) (e_kmb p) (e_sp p) (e_csp p) in
  length (establish_transcript (fq 77) (snd kp) (fq 5) (fq 10) (fq 1000) p [1;2;3]%Z) = 26%nat /\
  nth 21 (establish_transcript (fq 77) (snd kp) (fq 5) (fq 10) (fq 1000) p [1;2;3]%Z) (AB [])
  <> nth 21 (establish_transcript (fq 77) (snd kp) (fq 5) (fq 10) (fq 1000) p' [1;2;3]%Z) (AB []).
Proof. split; [vm_compute; reflexivity|]. vm_compute. intros H. inversion H. Qed.

Print Assumptions C12_builder_proof_transcript_eq.
Print Assumptions C12_establish_prover_verifier_same_transcript.
Print Assumptions C12_concat_chunks_injective.
Print Assumptions C12_public_key_chunks_injective.
Print Assumptions C12_range_parameter_chunks_injective.
Print Assumptions C12_range_constraint_chunks_injective.
Print Assumptions C12_establish_transcript_binds.
Print Assumptions C12_pay_transcript_binds.
Print Assumptions C12_same_challenge_is_collision.
Print Assumptions C12_pinned_establish_binds_refuted.
Print Assumptions C12_pinned_pay_binds_refuted.
Print Assumptions C12_nonvacuous.
