From ZK Require Import Model.Field Model.PS Model.Schnorr Model.Range Proofs.FieldFacts Proofs.SchnorrProofs.
Local Open Scope fld_scope.

(** ** digit arithmetic over the integers: [digits_go] and [zweighted] are [to_base 128] and [of_base 128] *)
Theorem digits_spec v : (0 <= v < 2 ^ 63)%Z ->
  zweighted (digits v) = v /\ Forall (fun d => (0 <= d < 128)%Z) (digits v) /\ length (digits v) = 9%nat.
Proof. intros Hv. split; [|split].
  - exact (of_to_base 128 eq_refl 9 v Hv).
  - exact (to_base_digits 128 eq_refl 9 v).
  - exact (to_base_length 128 9 v). Qed.

(** the largest value any nine digits in [0,128) can represent is 2^63 - 1: no wrap modulo q *)
Theorem digit_sum_bound ds : length ds = 9%nat -> Forall (fun d => (0 <= d < 128)%Z) ds ->
  (0 <= zweighted ds <= 2 ^ 63 - 1)%Z.
Proof. intros Hl Hd. pose proof (of_base_range 128 eq_refl ds Hd) as B. rewrite Hl in B.
  change (128 ^ Z.of_nat 9)%Z with (2 ^ 63)%Z in B. change (of_base 128 ds) with (zweighted ds) in B. lia. Qed.

Section P.
Variable K : Fld.
Add Field RangeField : (Fth K).

Fixpoint horner (xs : list K) : K :=
  match xs with [] => f0 | x :: xs => x + of_Z 128 * horner xs end.

Lemma weighted_go_spec (upow acc : K) xs : weighted_go upow acc xs = acc + upow * horner xs.
Proof. revert upow acc; induction xs as [|x xs IH]; intros upow acc; cbn [weighted_go horner]; [ring|]. rewrite IH. ring. Qed.

Lemma weighted_horner (xs : list K) : weighted xs = horner xs.
Proof. unfold weighted. rewrite weighted_go_spec. ring. Qed.

Lemma horner_of_Z ds : horner (map of_Z ds) = of_Z (zweighted ds).
Proof. induction ds as [|d ds IH]; [reflexivity|]. cbn [horner map zweighted].
  rewrite (of_Z_add K), (of_Z_mul K), IH. reflexivity. Qed.

Lemma horner_map2_lin (f : K -> K -> K) (a b : K) : (forall x y, f x y = a * x + b * y) ->
  forall ms ks, length ms = length ks -> horner (map2 f ms ks) = a * horner ms + b * horner ks.
Proof. intros Hf. induction ms as [|m ms IH]; intros [|k ks] [=]; cbn [map2 horner]; [ring|].
  rewrite IH, Hf by assumption. ring. Qed.

Lemma validate_go_iff (pk : pkey K) i sigs : validate_go pk i sigs = true <->
  forall j, (j < length sigs)%nat -> verify pk [of_Z (i + Z.of_nat j)] (nth j sigs (f0, f0)) = true.
Proof. revert i; induction sigs as [|s sigs IH]; intros i; simpl; [split; [lia | reflexivity]|].
  rewrite andb_true_iff, IH. split.
  - intros [H1 H2] [|j] Hj; [now rewrite Z.add_0_r|].
    replace (i + Z.of_nat (S j))%Z with (i + 1 + Z.of_nat j)%Z by lia. apply H2. lia.
  - intros H. split; [rewrite <- (Z.add_0_r i); apply (H 0%nat); lia|]. intros j Hj.
    replace (i + 1 + Z.of_nat j)%Z with (i + Z.of_nat (S j))%Z by lia. apply (H (S j)). lia. Qed.

Theorem validate_iff (rp : rparams K) :
  validate rp = true <->
  forall j, (j < length (rp_sigs rp))%nat ->
            verify (rp_pk rp) [of_Z (Z.of_nat j)] (nth j (rp_sigs rp) (f0, f0)) = true.
Proof. apply validate_go_iff. Qed.

Theorem prover_refuses_negative (rp : rparams K) v ds c : (v < 0)%Z -> range_prove rp v ds c = None.
Proof. intros Hv. unfold range_prove. destruct (Z.ltb_spec v 0); [reflexivity|lia]. Qed.

Theorem prover_accepts_nonnegative (rp : rparams K) v ds c : (0 <= v)%Z -> exists ps, range_prove rp v ds c = Some ps.
Proof. intros Hv. unfold range_prove. destruct (Z.ltb_spec v 0); [lia|]. eexists; reflexivity. Qed.

Theorem range_verify_iff (rp : rparams K) ps c e :
  range_verify rp ps c e = true <->
  Forall (fun p => sig_verify (rp_pk rp) p c = true) ps /\
  horner (map (fun p => nth 0 (cp_rs (sp_cp p)) f0) ps) = e.
Proof. unfold range_verify. rewrite andb_true_iff, forallb_forall, Forall_forall, (feqb_ok K), weighted_horner.
  reflexivity. Qed.

Definition digit_proof (rp : rparams K) (c : K) (d : Z) (rd : rdraw K) : sproof K :=
  sig_prove (rp_pk rp) [of_Z d] (nth (Z.to_nat d) (rp_sigs rp) (f0, f0))
            (rd_bf rd) (rd_kbf rd) [rd_k rd] (rd_r rd) c.

Lemma digit_proof_verifies (rp : rparams K) c d rd : validate rp = true -> length (rp_sigs rp) = 128%nat ->
  (0 <= d < 128)%Z -> rd_r rd <> f0 -> sig_verify (rp_pk rp) (digit_proof rp c d rd) c = true.
Proof. intros Hval Hlen Hd Hr. unfold digit_proof. rewrite sig_complete; [now apply (fneqb_true K) | reflexivity |].
  rewrite <- (Z2Nat.id d) at 1 by lia. apply (proj1 (validate_iff rp) Hval). lia. Qed.

Lemma digit_proofs_responses (rp : rparams K) c dz ds :
  map (fun p => nth 0 (cp_rs (sp_cp p)) f0) (map2 (digit_proof rp c) dz ds)
  = map2 (fun m k => c * m + k) (map of_Z dz) (map rd_k ds).
Proof. now rewrite map_map2, map2_map. Qed.

Theorem range_complete (rp : rparams K) v ds c :
  validate rp = true -> length (rp_sigs rp) = 128%nat -> (0 <= v < 2 ^ 63)%Z ->
  length ds = 9%nat -> Forall (fun rd => rd_r rd <> f0) ds ->
  exists ps, range_prove rp v ds c = Some ps /\
             range_verify rp ps c (c * of_Z v + range_commitment_scalar ds) = true.
Proof. intros Hval Hlen Hv Hl Hr. destruct (digits_spec v Hv) as (Hsum & Hrange & Hdl).
  unfold range_prove. destruct (Z.ltb_spec v 0); [lia|]. eexists; split; [reflexivity|].
  fold (digit_proof rp c). apply range_verify_iff. split.
  - exact (Forall_map2 _ _ _ _ (fun d rd => digit_proof_verifies rp c d rd Hval Hlen) _ _ Hrange Hr).
  - rewrite digit_proofs_responses, (horner_map2_lin _ c f1), horner_of_Z, Hsum
      by (rewrite ?map_length; congruence || intros; ring).
    unfold range_commitment_scalar. rewrite weighted_horner. ring. Qed.

(** the honest constraint's commitment scalar, used for the linked slot, makes that slot's response equal
    to the expected value *)
Theorem range_link (h : K) gs ms bf kbf ks c j v ds : length ms = length ks -> (j < length ms)%nat ->
  nth j ms f0 = of_Z v -> nth j ks f0 = range_commitment_scalar ds ->
  nth j (cp_rs (cp_prove h gs ms bf kbf ks c)) f0 = c * of_Z v + range_commitment_scalar ds.
Proof. intros Hl Hj Hm Hk. rewrite (response_scalar_spec K) by assumption. rewrite Hm, Hk. reflexivity. Qed.

(** ** special soundness of a range constraint: two accepting transcripts with the same first messages
    yield, for every digit position, a message with a VALID SIGNATURE under the range key, and the
    weighted sum of those messages is the value extracted from the linked response scalar *)
Definition r0 (p : sproof K) : K := nth 0 (cp_rs (sp_cp p)) f0.
Definition same_first (p p' : sproof K) : Prop :=
  sp_sig p = sp_sig p' /\ cp_C (sp_cp p) = cp_C (sp_cp p') /\ cp_T (sp_cp p) = cp_T (sp_cp p') /\
  length (cp_rs (sp_cp p)) = 1%nat /\ length (cp_rs (sp_cp p')) = 1%nat.
Definition xdigit (d : K) (p p' : sproof K) : K := ext K d (r0 p) (r0 p').

Lemma digit_extract (pk : pkey K) p p' c c' : c - c' <> f0 -> same_first p p' ->
  sig_verify pk p c = true -> sig_verify pk p' c' = true ->
  verify pk [xdigit (c - c') p p'] (unblind (ext K (c - c') (cp_rbf (sp_cp p)) (cp_rbf (sp_cp p'))) (sp_sig p)) = true.
Proof. intros Hc (Hs & HC & HT & L1 & L2) V1 V2.
  destruct (sig_extract K pk p p' c c' Hc) as [_ V]; try congruence. revert V. unfold xdigit, r0.
  destruct (cp_rs (sp_cp p)) as [|x [|? ?]], (cp_rs (sp_cp p')) as [|x' [|? ?]]; try discriminate. exact (fun V => V). Qed.

Theorem range_special_soundness (rp : rparams K) ps ps' c c' e e' :
  c - c' <> f0 -> length (pk_y2s (rp_pk rp)) = 1%nat -> Forall2 same_first ps ps' ->
  range_verify rp ps c e = true -> range_verify rp ps' c' e' = true ->
  Forall2 (fun p p' => exists bf, verify (rp_pk rp) [xdigit (c - c') p p'] (unblind bf (sp_sig p)) = true) ps ps'
  /\ horner (map2 (xdigit (c - c')) ps ps') = (e - e') / (c - c').
Proof. intros Hc Hy HF V1 V2. apply range_verify_iff in V1, V2. destruct V1 as [F1 E1], V2 as [F2 E2]. split.
  - clear E1 E2. induction HF as [|p p' ps ps' Hp _ IH]; constructor.
    + inversion F1; inversion F2. eexists. apply (digit_extract (rp_pk rp) p p' c c'); auto.
    + inversion F1; inversion F2. apply IH; assumption.
  - rewrite <- (map2_map (ext K (c - c')) r0 r0), (horner_map2_lin _ _ _ (ext_lin K (c - c'))) by (rewrite !map_length; eapply Forall2_len; eauto).
    unfold r0. rewrite E1, E2. field. exact Hc. Qed.

End P.
