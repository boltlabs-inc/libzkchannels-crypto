(** Exact-value reuse (C14), per message constructor: every group element and scalar that a customer message carries is
    an AFFINE function  a * rho + b  of a random value rho drawn for that message, with a coefficient a <> 0 that does
    not depend on rho.  Hence for any fixed earlier value v, at most one value of rho makes the atom equal v
    ([affine_collision_unique]), whatever the secrets are.  Side conditions are exactly the well-formedness facts the
    decoders / key generation guarantee (generators and sigma1 are not the identity) and non-zero randomisers. *)
From ZK Require Import Model.Field Model.PS Model.Schnorr Model.Range Model.Abacus Model.Customer Proofs.FieldFacts
  Proofs.PedersenProofs Proofs.SchnorrProofs.
Local Open Scope fld_scope.

Section P.
Variable K : Fld.
Add Field MaskingField : (Fth K).

Theorem affine_injective (a b x y : K) : a <> f0 -> a * x + b = a * y + b -> x = y.
Proof. exact (affine_inj K a b x y). Qed.

Theorem affine_collision_unique (a b v x : K) : a <> f0 -> a * x + b = v -> x = (v - b) / a.
Proof. intros Ha E. rewrite <- E. field. exact Ha. Qed.

(** ** a commitment proof (and a signature-request proof, which is one under (g1, Y1..YN)):
    C in the blinding factor, T and the blinding-factor response in its commitment scalar, each response in its own
    commitment scalar *)
Theorem cp_C_masked (h : K) gs ms kbf ks c bf bf' : h <> f0 ->
  cp_C (cp_prove h gs ms bf kbf ks c) = cp_C (cp_prove h gs ms bf' kbf ks c) -> bf = bf'.
Proof. exact (commit_inj_bf K h gs ms bf bf'). Qed.

Theorem cp_T_masked (h : K) gs ms bf ks c kbf kbf' : h <> f0 ->
  cp_T (cp_prove h gs ms bf kbf ks c) = cp_T (cp_prove h gs ms bf kbf' ks c) -> kbf = kbf'.
Proof. exact (commit_inj_bf K h gs ks kbf kbf'). Qed.

Theorem cp_rbf_masked (h : K) gs ms bf ks c kbf kbf' :
  cp_rbf (cp_prove h gs ms bf kbf ks c) = cp_rbf (cp_prove h gs ms bf kbf' ks c) -> kbf = kbf'.
Proof. intros E. apply (factor_inj K f1 kbf kbf' _ _ E (f1_neq_f0 K)). simpl. ring. Qed.

Theorem cp_response_masked (h : K) gs ms bf kbf ks c j k k' : (j < length ms)%nat -> length ks = length ms ->
  nth j (cp_rs (cp_prove h gs ms bf kbf (upd j k ks) c)) f0 = nth j (cp_rs (cp_prove h gs ms bf kbf (upd j k' ks) c)) f0 ->
  k = k'.
Proof. intros Hj Hl E. apply (factor_inj K f1 k k' _ _ E (f1_neq_f0 K)).
  rewrite !(response_scalar_spec K), !nth_upd_same by (rewrite ?upd_length; congruence). ring. Qed.

(** the response hides the message value: for every other candidate value there is exactly one commitment scalar giving the
    same response *)
Theorem response_perfectly_hiding (c m m' k : K) : exists! k', c * m + k = c * m' + k'.
Proof. exists (c * m + k - c * m'). split; [ring|]. intros k' E. rewrite E. ring. Qed.

(** ** a signature proof: the shown signature (sigma1', sigma2') = blind_and_randomize r bf sigma:
    sigma1' in the randomiser r; sigma2' in the blinding factor bf (given r <> 0) *)
Theorem shown_sigma1_masked (s : sigt K) bf r r' : fst s <> f0 ->
  fst (blind_and_randomize r bf s) = fst (blind_and_randomize r' bf s) -> r = r'.
Proof. exact (fmul_cancel_l K (fst s) r r'). Qed.

Theorem shown_sigma2_masked (s : sigt K) r bf bf' : fst s <> f0 -> r <> f0 ->
  snd (blind_and_randomize r bf s) = snd (blind_and_randomize r bf' s) -> bf = bf'.
Proof. intros Hs Hr E. apply (factor_inj K _ bf bf' _ _ E (fmul_neq0 K _ _ Hs Hr)). simpl. ring. Qed.

Theorem randomize_collision_unique (sig : sigt K) (r : K) (v : K) : fst sig <> f0 ->
  fst (randomize r sig) = v -> r = v / fst sig.
Proof. intros Hs E. simpl in E. rewrite <- E. field. exact Hs. Qed.

Theorem unrandomised_signature_is_reused (sig : sigt K) : randomize f1 sig = sig.
Proof. destruct sig as [a b]. unfold randomize; simpl. f_equal; ring. Qed.

(** ** a closing message: both halves of the closing signature in the closing randomiser *)
Theorem closing_sigma1_masked (cs : sigt K) rho rho' : fst cs <> f0 ->
  fst (randomize rho cs) = fst (randomize rho' cs) -> rho = rho'.
Proof. exact (fmul_cancel_l K (fst cs) rho rho'). Qed.

Theorem closing_sigma2_masked (cs : sigt K) rho rho' : snd cs <> f0 ->
  snd (randomize rho cs) = snd (randomize rho' cs) -> rho = rho'.
Proof. exact (fmul_cancel_l K (snd cs) rho rho'). Qed.

Theorem closing_signature_differs_from_issued (cs : sigt K) rho : fst cs <> f0 -> rho <> f1 -> fst (randomize rho cs) <> fst cs.
Proof. intros Hs Hr E. apply Hr, (factor_inj K (fst cs) rho f1 _ _ E Hs). simpl. ring. Qed.

Theorem shown_signature_differs_from_issued (s : sigt K) r bf : fst s <> f0 -> r <> f1 ->
  fst (blind_and_randomize r bf s) <> fst s.
Proof. exact (closing_signature_differs_from_issued (fst s, snd s + fst s * bf) r). Qed.

(** the closing message of every stage is [randomize rho] of the stored signature: no stage sends the stored signature itself *)
Theorem every_close_rerandomises (st : stage K) rho sig s : close_of st rho = Some (sig, s) ->
  exists stored, closing_view st = Some (stored, s) /\ sig = randomize rho stored.
Proof. destruct st; intros [= <- <-]; eexists; split; reflexivity. Qed.

(** a zero randomiser (a generator fault at exactly that draw): the closing message then carries the identity pair - which the
    merchant refuses - and never the stored signature, whose first element is not the identity *)
Theorem zero_randomiser_close_sends_identity_pair (st : stage K) sig s : close_of st f0 = Some (sig, s) ->
  sig = (f0, f0) /\ forall stored, closing_view st = Some (stored, s) -> fst stored <> f0 -> sig <> stored.
Proof. intros H. destruct (every_close_rerandomises st f0 sig s H) as (stored & _ & ->).
  assert (E : randomize f0 stored = (f0, f0)) by (unfold randomize; f_equal; ring).
  split; [exact E|]. intros stored' _ Hne Heq. rewrite E in Heq. apply Hne. rewrite <- Heq. reflexivity. Qed.

(** ** the establish message: the four revealed commitment scalars are draws of this message; every other atom is an atom of
    one of its two signature-request proofs (covered above) *)
Theorem establish_revealed_scalars_are_fresh_draws (close_tag : K) (pk : pkey K) cid nonce lock cb mb bfs kbfs ks bfc kbfc kclose c :
  let p := establish_prove_with close_tag pk cid nonce lock cb mb bfs kbfs ks bfc kbfc kclose c in
  e_kcid p = nth 0 ks f0 /\ e_kclose p = kclose /\ e_kcb p = nth 3 ks f0 /\ e_kmb p = nth 4 ks f0 /\
  e_sp p = req_prove pk (state_msg cid nonce lock cb mb) bfs kbfs ks c /\
  e_csp p = req_prove pk (close_msg close_tag cid lock cb mb) bfc kbfc
              [nth 0 ks f0; kclose; nth 2 ks f0; nth 3 ks f0; nth 4 ks f0] c.
Proof. repeat split. Qed.

(** ** the pay message: the two revealed scalars are draws; the sub-proofs are commitment / signature proofs over fresh draws *)
Theorem pay_message_structure (close_tag : K) (pk : pkey K) rp hr gr tok old cbz mbz new d c p :
  pay_prove_with close_tag pk rp hr gr tok old cbz mbz new d c = Some p ->
  p_knonce p = d_knonce d /\ p_kclose p = d_kclose d /\
  sp_sig (p_tok p) = blind_and_randomize (d_rt d) (d_bft d) tok /\
  (exists kst, sp_cp (p_tok p) = cp_prove (pk_g2 pk) (pk_y2s pk) old (d_bft d) (d_kbft d) kst c) /\
  p_rev p = cp_prove hr [gr] [nth 2 old f0] (d_bfr d) (d_kbfr d) [d_krev d] c /\
  (exists kss, p_sp p = cp_prove (pk_g1 pk) (pk_y1s pk) new (d_bfs d) (d_kbfs d) kss c) /\
  (exists ksc newc, p_csp p = cp_prove (pk_g1 pk) (pk_y1s pk) newc (d_bfc d) (d_kbfc d) ksc c).
Proof. unfold pay_prove_with.
  destruct (range_prove rp cbz (d_dsc d) c) as [prc|]; [|discriminate].
  destruct (range_prove rp mbz (d_dsm d) c) as [prm|]; [|discriminate].
  intros [= <-]. cbn [p_knonce p_kclose p_tok p_rev p_sp p_csp sp_sig sp_cp sig_prove req_prove].
  repeat split; eexists; try eexists; reflexivity. Qed.

(** each digit proof of a range constraint is a signature proof around the published digit signature with its own four draws *)
Theorem range_digit_proofs_structure (rp : rparams K) v ds c ps : range_prove rp v ds c = Some ps ->
  ps = map2 (fun dg rd => sig_prove (rp_pk rp) [of_Z dg] (nth (Z.to_nat dg) (rp_sigs rp) (f0, f0))
                                    (rd_bf rd) (rd_kbf rd) [rd_k rd] (rd_r rd) c) (digits v) ds.
Proof. unfold range_prove. destruct (v <? 0)%Z; [discriminate|]. congruence. Qed.

End P.
