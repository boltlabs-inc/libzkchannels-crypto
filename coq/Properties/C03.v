(** C03 — The customer can always close on an unrevoked valid state; bad replies are inert.
    A merchant reply is an arbitrary pair of group elements, so the statements cover every fault of the fault
    alphabet injected any number of times.  Hypotheses, explicit: freshly generated revocation locks are new
    (not yet disclosed, different from the current one - a probability statement left outside), amounts are i64,
    and the closing randomiser is non-zero (for 0 the all-identity signature results, which the merchant rejects:
    [C03_close_with_zero_randomiser_rejected]; probability 2^-255, outside the property's quantifiers). *)
From ZK Require Import Model.Field Model.PS Model.Amount Model.Customer Proofs.PSProofs Proofs.CustomerProofs
  Proofs.MaskingProofs.
Local Open Scope fld_scope.

Theorem C03_refused_reply_inert : forall (K : Fld) (close_tag : K) (pk : pkey K) (st st' : stage K) ev,
  step close_tag pk st ev = (st', ORefused) -> st' = st.
Proof. exact refused_reply_inert. Qed.

Theorem C03_refused_payment_inert : forall (K : Fld) (close_tag : K) (pk : pkey K) (st st' : stage K) ev e,
  step close_tag pk st ev = (st', OError e) -> st' = st.
Proof. intros K ct pk st st' ev e. destruct (stepP K ct pk st ev); intros [= <-]; reflexivity. Qed.

Theorem C03_secret_released_only_on_valid : forall (K : Fld) (close_tag : K) (pk : pkey K) (st st' : stage K) ev l b,
  step close_tag pk st ev = (st', OLockMsg l b) ->
  exists new old bfr bft bfc ocs r,
    st = Started new old bfr bft bfc ocs /\ ev = EvLock r /\ verify pk (cmsg close_tag new) (unblind bfc r) = true /\
    l = s_lock old /\ b = bfr /\ st' = Locked new bft (unblind bfc r).
Proof. exact secret_released_only_on_valid. Qed.

Theorem C03_lock_accepts_iff : forall (K : Fld) (close_tag : K) (pk : pkey K) new old bfr bft bfc ocs r,
  (exists st' l b, step close_tag pk (Started new old bfr bft bfc ocs) (EvLock r) = (st', OLockMsg l b)) <->
  verify pk (cmsg close_tag new) (unblind bfc r) = true.
Proof. intros K ct pk new old bfr bft bfc ocs r. split; [|intros V; eexists _, _, _; now apply step_lock].
  intros (st' & l & b & H). revert H. cbn [step]. now destruct (verify pk (cmsg ct new) (unblind bfc r)). Qed.

Theorem C03_inv_init : forall (K : Fld) (close_tag cid : K) (pk : pkey K) s bfc bft,
  s_cid s = cid -> (0 <= s_cb s <= i64_max)%Z -> (0 <= s_mb s <= i64_max)%Z ->
  Inv K close_tag cid pk (mkSys (Requested s bfc bft) (s_cb s) (s_mb s) []).
Proof. exact inv_init. Qed.

Theorem C03_inv_step : forall (K : Fld) (close_tag cid : K) (pk : pkey K) (y : sys K) ev,
  Inv K close_tag cid pk y -> event_fresh K y ev -> Inv K close_tag cid pk (fst (sys_step close_tag pk y ev)).
Proof. exact inv_step. Qed.

(** every reachable state - any number of honest steps and arbitrary replies, in any order - satisfies the invariant *)
Theorem C03_inv_reachable : forall (K : Fld) (close_tag cid : K) (pk : pkey K) evs (y : sys K),
  Inv K close_tag cid pk y -> fresh_along K close_tag pk y evs -> Inv K close_tag cid pk (run close_tag pk y evs).
Proof. exact inv_reachable. Qed.

(** and in every such state (after establishment has passed Requested) closing works: accepted by the merchant's check,
    with the channel id, the ledger's balances for the stage and a lock that no earlier lock message disclosed *)
Theorem C03_close_accepted : forall (K : Fld) (close_tag cid : K) (pk : pkey K) (y : sys K) rho,
  Inv K close_tag cid pk y -> rho <> f0 ->
  match close_of (sy_stage y) rho with
  | Some (sig, s) => check_close close_tag pk sig s = true /\ s_cid s = cid /\ s_cb s = sy_cb y /\ s_mb s = sy_mb y /\
                     ~ In (s_lock s) (sy_disclosed y)
  | None => exists s bfc bft, sy_stage y = Requested s bfc bft
  end.
Proof. exact close_accepted. Qed.

Theorem C03_refused_replies_do_not_matter : forall (K : Fld) (close_tag : K) (pk : pkey K) evs (st : stage K),
  Forall (fun ev => snd (step close_tag pk st ev) = ORefused) evs ->
  fold_left (fun s ev => fst (step close_tag pk s ev)) evs st = st.
Proof. exact refused_replies_do_not_matter. Qed.

(** revocation bookkeeping: along any history the state a close would use is either still the same one or its lock has been
    disclosed to the merchant (and stays so): a closing message for a superseded state is refutable, the current one is not *)
Theorem C03_superseded_state_is_revoked : forall (K : Fld) (close_tag : K) (pk : pkey K) evs (y : sys K),
  let y' := run close_tag pk y evs in
  incl (sy_disclosed y) (sy_disclosed y') /\
  (main_state K (sy_stage y') = main_state K (sy_stage y) \/ In (s_lock (main_state K (sy_stage y))) (sy_disclosed y')).
Proof. exact superseded_state_is_revoked. Qed.

Theorem C03_close_with_zero_randomiser_rejected : forall (K : Fld) (close_tag : K) (pk : pkey K) st s sig,
  close_of st f0 = Some (sig, s) -> check_close close_tag pk sig s = false.
Proof. intros K ct pk st s sig (stored & _ & ->)%every_close_rerandomises. apply randomize_zero_rejected. Qed.

Print Assumptions C03_refused_reply_inert.
Print Assumptions C03_refused_payment_inert.
Print Assumptions C03_secret_released_only_on_valid.
Print Assumptions C03_lock_accepts_iff.
Print Assumptions C03_inv_init.
Print Assumptions C03_inv_step.
Print Assumptions C03_inv_reachable.
Print Assumptions C03_close_accepted.
Print Assumptions C03_close_with_zero_randomiser_rejected.
Print Assumptions C03_superseded_state_is_revoked.
Print Assumptions C03_refused_replies_do_not_matter.
