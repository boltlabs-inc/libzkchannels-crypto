(** C18 — Pay tokens and closing signatures can never stand in for each other. *)
From ZK Require Import Model.Field Model.QBls Model.Ids Proofs.FieldFacts Proofs.IdsProofs Proofs.MerchantProofs
  Model.PS Model.Abacus Proofs.ChallengeProofs.
Local Open Scope fld_scope.

(** for EVERY stream of draws, a generated nonce is the first draw different from the close tag *)
Theorem C18_nonce_new_not_close : forall (K : Fld) (close_tag : K) (draws : list K) n,
  nonce_new close_tag draws = Some n ->
  n <> close_tag /\ exists pre post, draws = pre ++ n :: post /\ Forall (fun y => y = close_tag) pre.
Proof. exact nonce_new_not_close. Qed.

Theorem C18_nonce_new_terminates : forall (K : Fld) (close_tag : K) (draws : list K),
  (exists y, In y draws /\ y <> close_tag) -> exists n, nonce_new close_tag draws = Some n.
Proof. intros K close_tag draws (y & Hy & Hne%(fneqb_true K)).
  apply (retry_some (nonce_ok close_tag) (fun x _ => x) _ (fun _ _ => eq_refl)). eauto. Qed.

Theorem C18_nonce_decode_spec : forall (K : Fld) (close_tag n v : K),
  nonce_decode close_tag n = Some v <-> v = n /\ n <> close_tag.
Proof. intros K close_tag n v. unfold nonce_decode. destruct (nonce_ok close_tag n) eqn:E.
  - apply (fneqb_true K) in E. split; [intros [= <-]; auto | intros [-> _]; reflexivity].
  - apply (fneqb_false K) in E. split; [discriminate | intros [_ Hn]; contradiction]. Qed.

Theorem C18_state_close_messages_differ : forall (K : Fld) (close_tag cid nonce lock cb mb : K), nonce <> close_tag ->
  state_msg cid nonce lock cb mb <> close_msg close_tag cid lock cb mb /\
  close_msg close_tag cid lock cb mb = upd 1 close_tag (state_msg cid nonce lock cb mb).
Proof. exact state_close_messages_differ. Qed.

Theorem C18_token_not_closing_signature : forall (K : Fld) (close_tag : K) (pk : pkey K) cid nonce lock cb mb tok,
  nonce <> close_tag -> length (pk_y2s pk) = 5%nat -> nth 1 (pk_y2s pk) f0 <> f0 ->
  verify pk (state_msg cid nonce lock cb mb) tok = true ->
  verify pk (close_msg close_tag cid lock cb mb) tok = false.
Proof. exact token_not_closing_signature. Qed.

Theorem C18_closing_signature_not_token : forall (K : Fld) (close_tag : K) (pk : pkey K) cid nonce lock cb mb s,
  nonce <> close_tag -> length (pk_y2s pk) = 5%nat -> nth 1 (pk_y2s pk) f0 <> f0 ->
  verify pk (close_msg close_tag cid lock cb mb) s = true ->
  verify pk (state_msg cid nonce lock cb mb) s = false.
Proof. exact closing_signature_not_token. Qed.

(** a channel id is the hash of the concatenation of its five inputs; that byte string changes whenever exactly
    one input changes (the two account strings are unframed: simultaneous changes of both are outside this) *)
Theorem C18_channel_id_deterministic : forall (H : list Z -> list Z) mr cr pkb ma ca,
  channel_id H mr cr pkb ma ca = H (cid_preimage mr cr pkb ma ca).
Proof. reflexivity. Qed.

Theorem C18_channel_id_preimage_single_change : forall mr cr pkb ma ca mr' cr' pkb' ma' ca',
  length mr = length mr' -> length cr = length cr' -> length pkb = length pkb' ->
  ((mr <> mr' /\ cr = cr' /\ pkb = pkb' /\ ma = ma' /\ ca = ca') \/
   (mr = mr' /\ cr <> cr' /\ pkb = pkb' /\ ma = ma' /\ ca = ca') \/
   (mr = mr' /\ cr = cr' /\ pkb <> pkb' /\ ma = ma' /\ ca = ca') \/
   (mr = mr' /\ cr = cr' /\ pkb = pkb' /\ ma <> ma' /\ ca = ca') \/
   (mr = mr' /\ cr = cr' /\ pkb = pkb' /\ ma = ma' /\ ca <> ca')) ->
  cid_preimage mr cr pkb ma ca <> cid_preimage mr' cr' pkb' ma' ca'.
Proof. exact channel_id_preimage_single_change. Qed.

(** the key enters the channel id through its byte representation (g1, y1s, g2, x2, y2s), which determines every element of the key *)
Theorem C18_channel_id_key_bytes_determine_key : forall (K : Fld) (pk pk' : pkey K),
  length (pk_y1s pk) = length (pk_y1s pk') -> pk_to_bytes_atoms pk = pk_to_bytes_atoms pk' -> pk = pk'.
Proof. intros K pk pk' L H. injection H as H1 H2.
  apply app_inj_len in H2; [|now rewrite !map_length]. destruct H2 as [H2 H3]. injection H3 as H3 H4 H5.
  apply (map_inj _ (A1_inj K)) in H2. apply (map_inj _ (A2_inj K)) in H5.
  destruct pk, pk'; simpl in *; congruence. Qed.

Example C18_nonvacuous :
  nonce_new (fq 7) [fq 7; fq 7; fq 9; fq 7] = Some (fq 9) /\ nonce_new (fq 7) [fq 7; fq 7] = None /\
  nonce_decode (fq 7) (fq 7) = None /\ nonce_decode (fq 7) (fq 8) = Some (fq 8).
Proof. vm_compute. auto. Qed.

Print Assumptions C18_nonce_new_not_close.
Print Assumptions C18_nonce_new_terminates.
Print Assumptions C18_nonce_decode_spec.
Print Assumptions C18_state_close_messages_differ.
Print Assumptions C18_token_not_closing_signature.
Print Assumptions C18_closing_signature_not_token.
Print Assumptions C18_channel_id_deterministic.
Print Assumptions C18_channel_id_preimage_single_change.
Print Assumptions C18_nonvacuous.
Print Assumptions C18_channel_id_key_bytes_determine_key.
