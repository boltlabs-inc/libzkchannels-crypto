(** C02 — Merchant approves payments only for a correct, unspent, in-range state update.
    Partial: exact relation, special soundness (incl. a valid merchant signature on the old state and
    valid range-key signatures on the digits), transcript binding, "one token, two nonces" are proved;
    rewinding and PS unforgeability are not formalised (DESIGN.md section 6). *)
From ZK Require Import Model.Field Model.QBls Model.Pedersen Model.PS Model.Schnorr Model.Range Model.Abacus
  Model.Amount Proofs.SchnorrProofs Proofs.RangeProofs Proofs.EstablishProofs Proofs.PayProofs Proofs.ChallengeProofs
  Proofs.AmountProofs.
Local Open Scope fld_scope.

Theorem C02_pay_verify_spec : forall (K : Fld) (close_tag : K) (pk : pkey K) rp hr gr nonce eps (p : pproof K) c v,
  pay_verify_with close_tag pk rp hr gr nonce eps p c = Some v <->
  pay_rel K close_tag pk rp hr gr nonce eps p c /\ v = (cp_C (p_sp p), cp_C (p_csp p), cp_C (p_rev p)).
Proof. exact pay_verify_spec. Qed.

Theorem C02_pay_special_soundness : forall (K : Fld) (close_tag : K) (pk : pkey K) rp hr gr nonce eps (p p' : pproof K) c c',
  c - c' <> f0 -> length (pk_y1s pk) = 5%nat -> length (pk_y2s pk) = 5%nat ->
  length (pk_y2s (rp_pk rp)) = 1%nat ->
  pay_lengths K pk p -> pay_lengths K pk p' -> pay_same_first K p p' ->
  pay_rel K close_tag pk rp hr gr nonce eps p c -> pay_rel K close_tag pk rp hr gr nonce eps p' c' ->
  let d := c - c' in
  let mo := xs K d (sp_cp (p_tok p)) (sp_cp (p_tok p')) in
  let mn := xs K d (p_sp p) (p_sp p') in
  let mc := xs K d (p_csp p) (p_csp p') in
  let ml := xs K d (p_rev p) (p_rev p') in
  verify pk mo (unblind (xbf K d (sp_cp (p_tok p)) (sp_cp (p_tok p'))) (sp_sig (p_tok p))) = true /\
  cp_C (p_sp p) = blind pk mn (xbf K d (p_sp p) (p_sp p')) /\
  cp_C (p_csp p) = blind pk mc (xbf K d (p_csp p) (p_csp p')) /\
  cp_C (p_rev p) = commit hr [gr] ml (xbf K d (p_rev p) (p_rev p')) /\
  nth 1 mo f0 = nonce /\
  nth 0 mn f0 = nth 0 mo f0 /\ nth 0 mc f0 = nth 0 mo f0 /\
  nth 1 mc f0 = close_tag /\
  nth 0 ml f0 = nth 2 mo f0 /\
  nth 2 mn f0 = nth 2 mc f0 /\
  nth 3 mn f0 = nth 3 mo f0 - eps /\ nth 4 mn f0 = nth 4 mo f0 + eps /\
  nth 3 mc f0 = nth 3 mn f0 /\ nth 4 mc f0 = nth 4 mn f0 /\
  (Forall2 (fun q q' => exists bf, verify (rp_pk rp) [xdigit K d q q'] (unblind bf (sp_sig q)) = true)
           (p_crange p) (p_crange p') /\
   horner K (map2 (xdigit K d) (p_crange p) (p_crange p')) = nth 3 mn f0) /\
  (Forall2 (fun q q' => exists bf, verify (rp_pk rp) [xdigit K d q q'] (unblind bf (sp_sig q)) = true)
           (p_mrange p) (p_mrange p') /\
   horner K (map2 (xdigit K d) (p_mrange p) (p_mrange p')) = nth 4 mn f0).
Proof. exact pay_special_soundness. Qed.

Theorem C02_pay_transcript_binds : forall (K : Fld) (close_tag : K) (pk pk' : pkey K) (rp rp' : rparams K)
    nonce nonce' (p p' : pproof K) ctx ctx',
  length (pk_y1s pk) = length (pk_y1s pk') -> length (pk_y2s pk) = length (pk_y2s pk') ->
  length (rp_sigs rp) = length (rp_sigs rp') ->
  length (pk_y1s (rp_pk rp)) = length (pk_y1s (rp_pk rp')) ->
  length (pk_y2s (rp_pk rp)) = length (pk_y2s (rp_pk rp')) ->
  length (p_crange p) = length (p_crange p') -> length (p_mrange p) = length (p_mrange p') ->
  pay_transcript close_tag pk rp nonce p ctx = pay_transcript close_tag pk' rp' nonce' p' ctx' ->
  pk = pk' /\ rp = rp' /\ nonce = nonce' /\
  cp_C (p_rev p) = cp_C (p_rev p') /\ cp_T (p_rev p) = cp_T (p_rev p') /\
  cp_C (p_sp p) = cp_C (p_sp p') /\ cp_T (p_sp p) = cp_T (p_sp p') /\
  cp_C (p_csp p) = cp_C (p_csp p') /\ cp_T (p_csp p) = cp_T (p_csp p') /\
  sp_first K (p_tok p) = sp_first K (p_tok p') /\
  map (sp_first K) (p_crange p) = map (sp_first K) (p_crange p') /\
  map (sp_first K) (p_mrange p) = map (sp_first K) (p_mrange p') /\
  p_knonce p = p_knonce p' /\ p_kclose p = p_kclose p' /\ ctx = ctx'.
Proof. exact pay_transcript_binds. Qed.

(** one proof accepted under two nonces with the same challenge forces that challenge to be 0 ... *)
Theorem C02_one_token_two_nonces : forall (K : Fld) (close_tag : K) (pk : pkey K) rp hr gr nonce nonce' eps eps' (p : pproof K) c,
  pay_rel K close_tag pk rp hr gr nonce eps p c -> pay_rel K close_tag pk rp hr gr nonce' eps' p c ->
  nonce <> nonce' -> c = f0.
Proof. exact one_token_two_nonces. Qed.

(** ... and a proof with a non-identity state commitment is accepted under at most one challenge, so a
    second acceptance (other nonce: another transcript, by binding) needs a hash collision onto 0 *)
Theorem C02_pay_unique_challenge : forall (K : Fld) (close_tag : K) (pk : pkey K) rp hr gr nonce eps nonce' eps' (p : pproof K) c c',
  cp_C (p_sp p) <> f0 ->
  pay_rel K close_tag pk rp hr gr nonce eps p c -> pay_rel K close_tag pk rp hr gr nonce' eps' p c' -> c = c'.
Proof. intros K close_tag pk rp hr gr nonce eps nonce' eps' p c c' HC (S1 & _) (S1' & _).
  now apply (unique_accepting_challenge K (pk_g1 pk) (pk_y1s pk) (p_sp p)). Qed.

Theorem C02_honest_payment_accepted : forall (K : Fld) (close_tag : K) (pk : pkey K) rp hr gr (tok : sigt K)
    cid nonce lock ocb omb nn lock' cbz mbz eps d c,
  verify pk [cid; nonce; lock; ocb; omb] tok = true ->
  validate rp = true -> length (rp_sigs rp) = 128%nat ->
  (0 <= cbz < 2 ^ 63)%Z -> (0 <= mbz < 2 ^ 63)%Z ->
  of_Z cbz = ocb - eps -> of_Z mbz = omb + eps ->
  length (d_dsc d) = 9%nat -> length (d_dsm d) = 9%nat ->
  Forall (fun rd => rd_r rd <> f0) (d_dsc d) -> Forall (fun rd => rd_r rd <> f0) (d_dsm d) ->
  d_rt d <> f0 ->
  let old := [cid; nonce; lock; ocb; omb] in
  let new := [cid; nn; lock'; of_Z cbz; of_Z mbz] in
  exists p, pay_prove_with close_tag pk rp hr gr tok old cbz mbz new d c = Some p /\
    pay_verify_with close_tag pk rp hr gr nonce eps p c
    = Some (blind pk new (d_bfs d), blind pk [cid; close_tag; lock'; of_Z cbz; of_Z mbz] (d_bfc d),
            commit hr [gr] [lock] (d_bfr d)).
Proof. exact pay_complete. Qed.

(** from the field to the integers (BLS12-381 scalar field): if the nine digit messages extracted for each new balance are
    genuine digits (each in [0,128) - what the range key's signatures attest; PS unforgeability is the named assumption) and
    the old balances and the amount are in their machine ranges, then the field equations of an accepted payment are integer
    equations: exactly the amount moves, both new balances are in [0, 2^63-1], the sum is conserved. No reduction modulo q can
    hide an overdraft. *)
Theorem C02_accepted_payment_moves_exactly_the_amount : forall (ocb omb a : Z) dsc dsm,
  (0 <= ocb <= i64_max)%Z -> (0 <= omb <= i64_max)%Z -> is_i64 a ->
  length dsc = 9%nat -> Forall (fun d => (0 <= d < 128)%Z) dsc ->
  length dsm = 9%nat -> Forall (fun d => (0 <= d < 128)%Z) dsm ->
  horner Fq (map (@of_Z Fq) dsc) = fsub (balance_scalar (K:=Fq) ocb) (amount_scalar a) ->
  horner Fq (map (@of_Z Fq) dsm) = fadd (balance_scalar (K:=Fq) omb) (amount_scalar a) ->
  zweighted dsc = (ocb - a)%Z /\ zweighted dsm = (omb + a)%Z /\
  (0 <= ocb - a <= i64_max)%Z /\ (0 <= omb + a <= i64_max)%Z /\ (zweighted dsc + zweighted dsm = ocb + omb)%Z.
Proof. exact accepted_payment_moves_exactly_the_amount. Qed.

(** non-vacuity, and the failure it excludes: with out-of-range "digits" the same field equation is satisfiable for an overdraft *)
Example C02_integer_update_nonvacuous :
  horner Fq (map (@of_Z Fq) [90; 0; 0; 0; 0; 0; 0; 0; 0]%Z) = fsub (balance_scalar (K:=Fq) 100) (amount_scalar 10) /\
  horner Fq (map (@of_Z Fq) [-900; 0; 0; 0; 0; 0; 0; 0; 0]%Z) = fsub (balance_scalar (K:=Fq) 100) (amount_scalar 1000).
Proof. split; apply (feqb_ok Fq); vm_compute; reflexivity. Qed.

Print Assumptions C02_pay_verify_spec.
Print Assumptions C02_pay_special_soundness.
Print Assumptions C02_pay_transcript_binds.
Print Assumptions C02_one_token_two_nonces.
Print Assumptions C02_pay_unique_challenge.
Print Assumptions C02_honest_payment_accepted.
Print Assumptions C02_accepted_payment_moves_exactly_the_amount.
Print Assumptions C02_integer_update_nonvacuous.
