(** * The wire types of both crates as compositions of the combinators of [Wire.v].
    Values are nested pairs / lists in the order of the serde-derived field order (DESIGN.md appendix B).
    The atom codecs for scalars and points are parameters: their laws are hypotheses of the theorems
    ([Properties/C15.v]); [Run.v] instantiates them (scalars: canonical little-endian below q, proved;
    points: a table built per run with the bls12_381 codec, trusted). *)
From Coq Require Import ZArith List Bool Lia.
From ZK Require Import Model.Field Model.Zq Model.QBls Model.Ids Model.Amount Model.Wire.
Import ListNotations.
Open Scope Z_scope.

(** integers *)
Definition parse_u (n : nat) (b : list Z) : option Z := Some (le_to_Z b).
Definition c_u8 : codec Z := c_atom 1 (parse_u 1) (Z_to_le 1) (fun z => 0 <= z < 256).
Definition c_u64 : codec Z := c_atom 8 (parse_u 8) (Z_to_le 8) (fun z => 0 <= z < 2 ^ 64).
Definition i64_of_u64 (u : Z) : Z := if u <? 2 ^ 63 then u else u - 2 ^ 64.
Definition c_i64 : codec Z :=
  c_atom 8 (fun b => Some (i64_of_u64 (le_to_Z b)))
         (fun a => Z_to_le 8 (a mod 2 ^ 64)) (fun a => - 2 ^ 63 <= a < 2 ^ 63).
Definition c_bytes (n : nat) : codec (list Z) := c_tuple n c_u8.

Section Codecs.
Variable K : Fld.
Variable close_tag : K.
Variable c_scalar : codec K.
Variable c_g1 : codec K.
Variable c_g2 : codec K.
Variable lock_ok : K -> K -> Z -> bool.     (* lock = canonical scalar of H(secret bytes ++ [index]) *)

Definition nz (x : K) : bool := fneqb x f0.
Definition all_nz (l : list K) : bool := forallb nz l.

Definition c_balance : codec Z := c_validated c_u64 (fun v => v <=? i64_max).
Definition c_amount : codec Z := c_i64.
Definition c_nonce : codec K := c_validated c_scalar (fun n => fneqb n close_tag).
Definition c_bf : codec K := c_scalar.

(** [Signature], [BlindedSignature], [ClosingSignature], [PayToken]: sigma1 must not be the identity *)
Definition c_sig : codec (K * K) := c_validated (c_pair c_g1 c_g1) (fun s => nz (fst s)).

Definition c_pedersen (cg : codec K) (n : nat) : codec (K * list K) :=
  c_validated (c_pair cg (c_array n cg)) (fun p => nz (fst p) && all_nz (snd p)).

(** [PublicKey<N>]: g1, y1s, g2, x2, y2s - no identity element *)
Definition c_pk (n : nat) : codec (K * (list K * (K * (K * list K)))) :=
  c_validated (c_pair c_g1 (c_pair (c_array n c_g1) (c_pair c_g2 (c_pair c_g2 (c_array n c_g2)))))
              (fun p => let '(g1, (y1s, (g2, (x2, y2s)))) := p in
                        nz g1 && nz g2 && nz x2 && all_nz y1s && all_nz y2s).
(** [SecretKey<N>]: x, ys, x1 - no zero scalar, x1 not the identity *)
Definition c_sk (n : nat) : codec (K * (list K * K)) :=
  c_validated (c_pair c_scalar (c_pair (c_array n c_scalar) c_g1))
              (fun p => let '(x, (ys, x1)) := p in nz x && nz x1 && all_nz ys).
Definition c_keypair (n : nat) := c_pair (c_sk n) (c_pk n).

(** [CommitmentProof<G,N>]: C, T, rbf, rs *)
Definition c_cp (cg : codec K) (n : nat) : codec (K * (K * (K * list K))) :=
  c_pair cg (c_pair cg (c_pair c_scalar (c_array n c_scalar))).
Definition c_srp (n : nat) := c_cp c_g1 n.
Definition c_sp (n : nat) := c_pair c_sig (c_cp c_g2 n).
Definition c_range_params := c_pair (c_tuple 128 c_sig) (c_pk 1).
Definition c_range_constraint := c_tuple 9 (c_sp 1).
Definition c_customer_config := c_pair (c_pk 5) (c_pair (c_pedersen c_g1 1) c_range_params).

Definition c_establish_proof :=
  c_pair c_scalar (c_pair c_scalar (c_pair c_scalar (c_pair c_scalar (c_pair (c_srp 5) (c_srp 5))))).
Definition c_pay_proof :=
  c_pair c_scalar (c_pair c_scalar (c_pair (c_sp 5) (c_pair (c_cp c_g1 1) (c_pair (c_srp 5) (c_pair (c_srp 5)
    (c_pair c_range_constraint c_range_constraint)))))).

(** [RevocationPair]: lock, (secret, index), validated against the hash *)
Definition c_revpair : codec (K * (K * Z)) :=
  c_validated (c_pair c_scalar (c_pair c_scalar c_u8)) (fun p => lock_ok (fst p) (fst (snd p)) (snd (snd p))).

(** [State]: channel id, nonce, revocation pair, merchant balance, customer balance *)
Definition c_state := c_pair (c_bytes 32) (c_pair c_nonce (c_pair c_revpair (c_pair c_balance c_balance))).
(** [CloseState]: channel id, lock, merchant balance, customer balance *)
Definition c_close_state := c_pair (c_bytes 32) (c_pair c_scalar (c_pair c_balance c_balance)).
Definition c_closing_message := c_pair c_sig c_close_state.

(** customer stages *)
Definition c_requested := c_pair c_state (c_pair c_bf c_bf).
Definition c_inactive := c_pair c_state (c_pair c_bf c_sig).       (* also Locked *)
Definition c_ready := c_pair c_state (c_pair c_sig c_sig).
Definition c_started := c_pair c_state (c_pair c_state (c_pair (c_pair c_bf (c_pair c_bf c_bf)) c_sig)).

End Codecs.

(** the canonical scalar codec of the BLS12-381 field (its laws are proved: [C15_scalar_codec_ok]) *)
Definition c_scalar_q : codec Fq :=
  c_atom 32 (fun b => if le_to_Z b <? q_bls then Some (fq (le_to_Z b)) else None) (fun x => Z_to_le 32 (val x)) (fun _ => True).

(** point codecs from a table (bytes, label) built per run with the bls12_381 decoder: the identity has label 0,
    valid non-identity encodings have distinct non-zero labels, every other byte string is undecodable *)
Fixpoint tbl_dec (tbl : list (list Z * Z)) (b : list Z) : option Fq :=
  match tbl with
  | [] => None
  | (k, x) :: tbl => if list_eq_dec Z.eq_dec k b then Some (fq x) else tbl_dec tbl b
  end.
Fixpoint tbl_enc (tbl : list (list Z * Z)) (x : Z) : list Z :=
  match tbl with
  | [] => []
  | (k, y) :: tbl => if y =? x then k else tbl_enc tbl x
  end.
Definition c_point (n : nat) (tbl : list (list Z * Z)) : codec Fq :=
  c_atom n (tbl_dec tbl) (fun x => tbl_enc tbl (val x)) (fun _ => True).
