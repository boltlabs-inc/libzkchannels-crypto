From ZK Require Import Model.Field Model.Pedersen Model.PS Proofs.FieldFacts.
Local Open Scope fld_scope.

Section P.
Variable K : Fld.
Add Field PSField : (Fth K).

(** The exact relation accepted by [Signature::verify]: e(s1, X~ + sum mi Y~i) = e(s2, g~), s1 <> 1. *)
Definition ps_relation (pk : pkey K) (ms : list K) (s : sigt K) : Prop :=
  fst s <> f0 /\ fst s * (pk_x2 pk + ip (pk_y2s pk) ms) = snd s * pk_g2 pk.

Theorem verify_iff (pk : pkey K) ms s : verify pk ms s = true <-> ps_relation pk ms s.
Proof. unfold verify, is_well_formed, ps_relation. now rewrite andb_true_iff, (fneqb_true K), (feqb_ok K), (pairing_eq K). Qed.

Lemma verify_fst (pk : pkey K) ms s : verify pk ms s = true -> fst s <> f0.
Proof. intros H. apply verify_iff in H. apply H. Qed.

(** Every "a valid signature, changed in one place, is rejected" below is this: key, message or second element are
    changed so that the pairing equation moves by [a * (x - y)], [a <> 0]; the result verifies iff [x = y]. *)
Theorem verify_changed_iff (pk pk' : pkey K) ms ms' (s s' : sigt K) a x y :
  verify pk ms s = true -> fst s' = fst s -> a <> f0 ->
  fst s' * (pk_x2 pk' + ip (pk_y2s pk') ms') - snd s' * pk_g2 pk'
  - (fst s * (pk_x2 pk + ip (pk_y2s pk) ms) - snd s * pk_g2 pk) = a * (x - y) ->
  (verify pk' ms' s' = true <-> x = y).
Proof. rewrite !verify_iff. unfold ps_relation. intros [H1 H2] E Ha D.
  rewrite (changed_eq_iff K a x y _ _ _ _ H2 Ha D), E. tauto. Qed.

Corollary verify_changed_false (pk pk' : pkey K) ms ms' (s s' : sigt K) a x y :
  verify pk ms s = true -> fst s' = fst s -> a <> f0 -> x <> y ->
  fst s' * (pk_x2 pk' + ip (pk_y2s pk') ms') - snd s' * pk_g2 pk'
  - (fst s * (pk_x2 pk + ip (pk_y2s pk) ms) - snd s * pk_g2 pk) = a * (x - y) ->
  verify pk' ms' s' = false.
Proof. intros Hv E Ha Hne D. apply not_true_is_false. now rewrite (verify_changed_iff pk pk' ms ms' s s' a x y Hv E Ha D). Qed.

(** a key pair as produced by [KeyPair::new] (any draws with g2 <> 0) *)
Definition key_ok (sk : skey K) (pk : pkey K) : Prop :=
  pk_g2 pk <> f0 /\
  pk_x2 pk = pk_g2 pk * sk_x sk /\
  pk_y2s pk = map (fun y => pk_g2 pk * y) (sk_ys sk) /\
  pk_y1s pk = map (fun y => pk_g1 pk * y) (sk_ys sk) /\
  sk_x1 sk = pk_g1 pk * sk_x sk.

Lemma keygen_ok g1 x ys g2 : g2 <> f0 -> key_ok (fst (keygen g1 x ys g2)) (snd (keygen g1 x ys g2)).
Proof. intros H. unfold key_ok. auto. Qed.

(** Under a consistent key, verification is the statement  s2 = s1 * (x + <ys, m>). *)
Lemma verify_key_ok (sk : skey K) (pk : pkey K) ms s : key_ok sk pk ->
  (verify pk ms s = true <-> fst s <> f0 /\ snd s = fst s * (sk_x sk + ip (sk_ys sk) ms)).
Proof. intros (Hg & Hx & Hy2 & _ & _). rewrite verify_iff. unfold ps_relation. rewrite Hx, Hy2, (ip_map_mul K).
  apply and_iff_compat_l. split; intros H.
  - symmetry. apply (factor_inj K _ _ _ _ _ H Hg). ring.
  - rewrite H. ring. Qed.

Theorem sign_verifies (sk : skey K) (pk : pkey K) h ms : key_ok sk pk -> h <> f0 -> verify pk ms (sign sk h ms) = true.
Proof. intros Hk Hh. apply (verify_key_ok sk pk); auto. Qed.

Theorem randomize_verify (pk : pkey K) ms r s :
  verify pk ms (randomize r s) = fneqb r f0 && verify pk ms s.
Proof. apply eq_true_iff_eq. rewrite andb_true_iff, !verify_iff, (fneqb_true K). unfold ps_relation, randomize; simpl.
  split.
  - intros [H1 H2]. assert (Hr : r <> f0) by (intros ->; apply H1; ring).
    assert (Hs : fst s <> f0) by (intros E; apply H1; rewrite E; ring).
    repeat split; auto. apply (factor_inj K r _ _ _ _ H2 Hr). ring.
  - intros [Hr [H1 H2]]. split; [now apply (fmul_neq0 K) | apply (eq_scaled K r _ _ _ _ H2); ring]. Qed.

Corollary randomize_nonzero_verifies (pk : pkey K) ms r s : r <> f0 -> verify pk ms s = true ->
  verify pk ms (randomize r s) = true.
Proof. intros Hr Hv. rewrite randomize_verify, Hv. apply (fneqb_true K) in Hr. now rewrite Hr. Qed.

Corollary randomize_zero_rejected (pk : pkey K) ms s : verify pk ms (randomize f0 s) = false.
Proof. rewrite randomize_verify. unfold fneqb. now rewrite (feqb_refl K). Qed.

Theorem all_identity_rejects (pk : pkey K) ms s2 : verify pk ms (f0, s2) = false.
Proof. unfold verify, is_well_formed, fneqb. now rewrite (feqb_refl K). Qed.

Theorem unblind_blind r bf (s : sigt K) : unblind bf (blind_and_randomize r bf s) = randomize r s.
Proof. unfold unblind, blind_and_randomize, randomize; simpl. f_equal. ring. Qed.

(** blind signature on the commitment to [ms], unblinded with the same factor, is a signature on [ms] *)
Theorem blind_sign_unblind (sk : skey K) (pk : pkey K) u bf ms : key_ok sk pk -> pk_g1 pk <> f0 -> u <> f0 ->
  verify pk ms (unblind bf (blind_sign sk pk u (blind pk ms bf))) = true.
Proof. intros Hk Hg Hu. apply (verify_key_ok sk pk _ _ Hk). destruct Hk as (_ & _ & _ & Hy1 & Hx1).
  unfold unblind, blind_sign, blind, commit; simpl. split; [now apply (fmul_neq0 K)|].
  rewrite Hy1, Hx1, (ip_map_mul K). ring. Qed.

(** what the unblinded blind signature is, for ANY commitment [c]: a signature "on" the G1 element x1 + c - g1*bf *)
Lemma blind_sign_unblind_value (sk : skey K) (pk : pkey K) u bf c :
  unblind bf (blind_sign sk pk u c) = (pk_g1 pk * u, (sk_x1 sk + c - pk_g1 pk * bf) * u).
Proof. unfold unblind, blind_sign; simpl. f_equal. ring. Qed.

Theorem verify_other_message (pk : pkey K) ms ms' s : verify pk ms s = true ->
  (verify pk ms' s = true <-> ip (pk_y2s pk) ms = ip (pk_y2s pk) ms').
Proof. intros Hv.
  rewrite (verify_changed_iff pk pk ms ms' s s (fst s) (ip (pk_y2s pk) ms') (ip (pk_y2s pk) ms) Hv eq_refl (verify_fst _ _ _ Hv))
    by ring. split; congruence. Qed.

Theorem single_coordinate_rejects (pk : pkey K) ms s j v : verify pk ms s = true ->
  (j < length ms)%nat -> (j < length (pk_y2s pk))%nat -> nth j (pk_y2s pk) f0 <> f0 -> v <> nth j ms f0 ->
  verify pk (upd j v ms) s = false.
Proof. intros Hv Hm Hy Hyj Hne.
  apply (verify_changed_false pk pk ms _ s s (fst s * nth j (pk_y2s pk) f0) v (nth j ms f0) Hv eq_refl
           (fmul_neq0 K _ _ (verify_fst _ _ _ Hv) Hyj) Hne).
  rewrite (ip_upd K) by assumption. ring. Qed.

(** ** why key exponents and signature bases must be independent draws (what the generation checks of C19 / C13 watch).
    (1) moving value [d] from coordinate [j] to coordinate [i] changes <y~, m> by (y~_i - y~_j) * d: a signature stays valid
    exactly when the two exponents coincide (or d = 0) - so with pairwise different exponents every such move is rejected,
    and with equal exponents every such move is accepted. *)
Theorem moved_value_iff (pk : pkey K) ms s i j d : verify pk ms s = true ->
  (i < length ms)%nat -> (j < length ms)%nat -> (i < length (pk_y2s pk))%nat -> (j < length (pk_y2s pk))%nat -> i <> j ->
  (verify pk (upd i (nth i ms f0 + d) (upd j (nth j ms f0 - d) ms)) s = true <->
   (nth i (pk_y2s pk) f0 - nth j (pk_y2s pk) f0) * d = f0).
Proof. intros Hv Hi Hj Hyi Hyj Hij. apply (verify_changed_iff pk pk ms _ s s (fst s) _ f0 Hv eq_refl (verify_fst _ _ _ Hv)).
  rewrite !(ip_upd K), (nth_upd_other i j) by (rewrite ?upd_length; assumption). ring. Qed.

(** (2) two signatures made with ONE base h on messages m0 <> m1 (single-message key) give, by interpolation, a valid signature
    on EVERY message m - so published digit signatures must not share their base. *)
Theorem shared_base_signatures_forge (sk : skey K) (pk : pkey K) (h m0 m1 m : K) : key_ok sk pk -> h <> f0 -> m1 - m0 <> f0 ->
  length (sk_ys sk) = 1%nat ->
  let s0 := sign sk h [m0] in let s1 := sign sk h [m1] in
  verify pk [m] (h, snd s0 + (m - m0) / (m1 - m0) * (snd s1 - snd s0)) = true.
Proof. intros Hk Hh Hm Hl s0 s1. subst s0 s1. apply (verify_key_ok sk pk _ _ Hk). unfold sign. cbn [fst snd]. split; [exact Hh|].
  destruct (sk_ys sk) as [|y [|? ?]]; try discriminate. cbn [ip]. field. exact Hm. Qed.

Theorem wrong_bf_rejects (pk : pkey K) ms s bf bf' : pk_g2 pk <> f0 -> bf' <> bf ->
  verify pk ms (unblind bf s) = true -> verify pk ms (unblind bf' s) = false.
Proof. intros Hg Hb Hv.
  apply (verify_changed_false pk pk ms ms _ (unblind bf' s) (fst s * pk_g2 pk) bf' bf Hv eq_refl
           (fmul_neq0 K _ _ (verify_fst _ _ _ Hv) Hg) Hb).
  simpl. ring. Qed.

Theorem x2_change_rejects (pk : pkey K) ms s x2' : x2' <> pk_x2 pk -> verify pk ms s = true ->
  verify (mkPk (pk_g1 pk) (pk_y1s pk) (pk_g2 pk) x2' (pk_y2s pk)) ms s = false.
Proof. intros Hx Hv. apply (verify_changed_false pk _ ms ms s s (fst s) x2' (pk_x2 pk) Hv eq_refl (verify_fst _ _ _ Hv) Hx). simpl. ring. Qed.

Theorem g2_change_rejects (pk : pkey K) ms s g2' : g2' <> pk_g2 pk -> snd s <> f0 -> verify pk ms s = true ->
  verify (mkPk (pk_g1 pk) (pk_y1s pk) g2' (pk_x2 pk) (pk_y2s pk)) ms s = false.
Proof. intros Hg Hs Hv. apply (verify_changed_false pk _ ms ms s s (snd s) (pk_g2 pk) g2' Hv eq_refl Hs (not_eq_sym Hg)). simpl. ring. Qed.

Theorem y2_change_rejects (pk : pkey K) ms s j y' : verify pk ms s = true ->
  (j < length ms)%nat -> (j < length (pk_y2s pk))%nat -> nth j ms f0 <> f0 -> y' <> nth j (pk_y2s pk) f0 ->
  verify (mkPk (pk_g1 pk) (pk_y1s pk) (pk_g2 pk) (pk_x2 pk) (upd j y' (pk_y2s pk))) ms s = false.
Proof. intros Hv Hm Hy Hmj Hne.
  apply (verify_changed_false pk _ ms ms s s (fst s * nth j ms f0) y' (nth j (pk_y2s pk) f0) Hv eq_refl
           (fmul_neq0 K _ _ (verify_fst _ _ _ Hv) Hmj) Hne).
  simpl. rewrite (ip_upd_l K) by assumption. ring. Qed.

(** the all-zero message: the X~ term stays - verification is e(s1, X~) = e(s2, g~), and under a generated key the only
    signatures are (h, h x) *)
Theorem verify_zero_message (pk : pkey K) n s :
  verify pk (repeat f0 n) s = true <-> fst s <> f0 /\ fst s * pk_x2 pk = snd s * pk_g2 pk.
Proof. rewrite verify_iff. unfold ps_relation. rewrite (ip_zero_r K).
  split; intros [H1 H2]; split; auto; rewrite <- H2; ring. Qed.

Theorem zero_message_signature_is_h_hx (sk : skey K) (pk : pkey K) n s : key_ok sk pk ->
  (verify pk (repeat f0 n) s = true <-> fst s <> f0 /\ snd s = fst s * sk_x sk).
Proof. intros Hk. rewrite (verify_key_ok sk pk) by assumption. rewrite (ip_zero_r K).
  split; intros [H1 H2]; split; auto; rewrite H2; ring. Qed.

End P.
