(** C20 — A customer restored from storage at any step continues exactly as the original.
    (1) storing and restoring is the identity on every well-formed state (codec_ok of the stage codecs);
    (2) every reachable state is well formed: balances in range and stored signatures with a non-identity first
    element (from the invariant), nonces different from the close tag and locks equal to the hash of their secret
    (by construction of the generators, C18 / C05);
    (3) every transition and every close is a FUNCTION of (state, reply, randomness) in the model and in the Rust
    typestate API, so equal states continue identically. *)
From ZK Require Import Model.Field Model.PS Model.Amount Model.Customer Model.Wire Model.Codecs Proofs.PSProofs
  Proofs.CodecsProofs Proofs.CustomerProofs.

Theorem C20_restore_is_identity : forall A (c : codec A), codec_ok c -> forall v, wf c v ->
  res_of (dec c (enc c v)) = Some (v, []).
Proof. intros A c Hc v Hv. rewrite <- (app_nil_r (enc c v)). now apply (ok_roundtrip c Hc). Qed.

Theorem C20_stage_codecs_ok : forall (K : Fld) (close_tag : K) (c_scalar c_g1 : codec K) (lock_ok : K -> K -> Z -> bool),
  codec_ok c_scalar -> codec_ok c_g1 ->
  codec_ok (c_requested K close_tag c_scalar lock_ok) /\ codec_ok (c_inactive K close_tag c_scalar c_g1 lock_ok) /\
  codec_ok (c_ready K close_tag c_scalar c_g1 lock_ok) /\ codec_ok (c_started K close_tag c_scalar c_g1 lock_ok).
Proof. intros. repeat apply conj; eauto 60 with codec. Qed.

Theorem C20_reachable_signatures_well_formed : forall (K : Fld) (close_tag cid : K) (pk : pkey K) (y : sys K),
  Inv K close_tag cid pk y ->
  match closing_view (sy_stage y) with Some (sig, _) => fst sig <> f0 | None => True end /\
  match sy_stage y with Ready _ tok _ => fst tok <> f0 | _ => True end.
Proof. intros K ct cid pk y [_ H]%Inv_iff.
  destruct (sy_stage y); cbn [closing_view holds] in *; repeat split; eapply (verify_iff K), H. Qed.

Theorem C20_reachable_balances_in_range : forall (K : Fld) (close_tag cid : K) (pk : pkey K) evs (y : sys K),
  Inv K close_tag cid pk y -> fresh_along K close_tag pk y evs ->
  (0 <= sy_cb (run close_tag pk y evs) <= i64_max)%Z /\ (0 <= sy_mb (run close_tag pk y evs) <= i64_max)%Z.
Proof. intros K ct cid pk evs y Hi Hf.
  now destruct (proj1 (Inv_iff _ _ _ _ _) (inv_reachable K ct cid pk evs y Hi Hf)) as [(_ & <- & <- & _ & R) _]. Qed.

(** equal states continue identically: transitions and closing are functions *)
Theorem C20_equal_states_continue_identically : forall (K : Fld) (close_tag : K) (pk : pkey K) (st st' : stage K) ev rho,
  st = st' -> step close_tag pk st ev = step close_tag pk st' ev /\ close_of st rho = close_of st' rho.
Proof. now intros K ct pk st st' ev rho <-. Qed.

Print Assumptions C20_restore_is_identity.
Print Assumptions C20_stage_codecs_ok.
Print Assumptions C20_reachable_signatures_well_formed.
Print Assumptions C20_reachable_balances_in_range.
Print Assumptions C20_equal_states_continue_identically.
