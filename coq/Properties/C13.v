(** C13 — Range constraints accept exactly values in [0, 2^63) linked to the message. *)
From ZK Require Import Model.Field Model.QBls Model.PS Model.Schnorr Model.Range Proofs.PSProofs Proofs.RangeProofs.
Local Open Scope fld_scope.

Theorem C13_prover_refuses_negative : forall (K : Fld) (rp : rparams K) v ds c,
  (v < 0)%Z -> range_prove rp v ds c = None.
Proof. exact prover_refuses_negative. Qed.

Theorem C13_prover_accepts_nonnegative : forall (K : Fld) (rp : rparams K) v ds c,
  (0 <= v)%Z -> exists ps, range_prove rp v ds c = Some ps.
Proof. exact prover_accepts_nonnegative. Qed.

Theorem C13_digits_spec : forall v, (0 <= v < 2 ^ 63)%Z ->
  zweighted (digits v) = v /\ Forall (fun d => (0 <= d < 128)%Z) (digits v) /\ length (digits v) = 9%nat.
Proof. exact digits_spec. Qed.

(** any nine published digits represent at most 2^63 - 1 (< q): this is where u^l = 2^63 lives *)
Theorem C13_digit_sum_bound : forall ds, length ds = 9%nat -> Forall (fun d => (0 <= d < 128)%Z) ds ->
  (0 <= zweighted ds <= 2 ^ 63 - 1)%Z.
Proof. exact digit_sum_bound. Qed.

Theorem C13_two_pow_63_below_q : (2 ^ 63 - 1 < q_bls)%Z.
Proof. vm_compute. reflexivity. Qed.

Theorem C13_range_complete : forall (K : Fld) (rp : rparams K) v ds c,
  validate rp = true -> length (rp_sigs rp) = 128%nat -> (0 <= v < 2 ^ 63)%Z ->
  length ds = 9%nat -> Forall (fun rd => rd_r rd <> f0) ds ->
  exists ps, range_prove rp v ds c = Some ps /\
             range_verify rp ps c (c * of_Z v + range_commitment_scalar ds) = true.
Proof. exact range_complete. Qed.

Theorem C13_range_verify_iff : forall (K : Fld) (rp : rparams K) ps c e,
  range_verify rp ps c e = true <->
  Forall (fun p => sig_verify (rp_pk rp) p c = true) ps /\
  horner K (map (fun p => nth 0 (cp_rs (sp_cp p)) f0) ps) = e.
Proof. exact range_verify_iff. Qed.

Theorem C13_wrong_link_rejected : forall (K : Fld) (rp : rparams K) ps c e e', e' <> e ->
  range_verify rp ps c e = true -> range_verify rp ps c e' = false.
Proof. intros K rp ps c e e' Hne H. apply range_verify_iff in H. destruct H as [_ H].
  destruct (range_verify rp ps c e') eqn:E; [|reflexivity].
  apply range_verify_iff in E. destruct E as [_ E]. congruence. Qed.

(** extraction: an accepted constraint (two transcripts) contains, per digit, a message carrying a VALID
    signature under the range key, and their weighted sum is the value in the linked slot.  With the
    (unproved, computational) premise that only the 128 published signatures exist for that key, the
    messages are digits in [0,128) and [C13_digit_sum_bound] confines the value to [0, 2^63). *)
Theorem C13_range_special_soundness : forall (K : Fld) (rp : rparams K) ps ps' c c' e e',
  c - c' <> f0 -> length (pk_y2s (rp_pk rp)) = 1%nat -> Forall2 (same_first K) ps ps' ->
  range_verify rp ps c e = true -> range_verify rp ps' c' e' = true ->
  Forall2 (fun p p' => exists bf, verify (rp_pk rp) [xdigit K (c - c') p p'] (unblind bf (sp_sig p)) = true) ps ps'
  /\ horner K (map2 (xdigit K (c - c')) ps ps') = (e - e') / (c - c').
Proof. exact range_special_soundness. Qed.

Theorem C13_validate_iff : forall (K : Fld) (rp : rparams K),
  validate rp = true <->
  forall j, (j < length (rp_sigs rp))%nat ->
            verify (rp_pk rp) [of_Z (Z.of_nat j)] (nth j (rp_sigs rp) (f0, f0)) = true.
Proof. exact validate_iff. Qed.

Example C13_nonvacuous :
  digits (2 ^ 63 - 1) = [127; 127; 127; 127; 127; 127; 127; 127; 127]%Z /\
  digits 128 = [0; 1; 0; 0; 0; 0; 0; 0; 0]%Z /\ zweighted (digits 123456789012345) = 123456789012345%Z.
Proof. vm_compute. auto. Qed.

(** why the 128 published digit signatures must be made with independent bases: two signatures sharing a base h on
    different messages yield, by interpolation, a valid signature on EVERY message (e.g. on 128, or on -1) - "only the 128
    published digit signatures exist" would be false. The generation check of C19 / C13 watches that the bases differ. *)
Theorem C13_shared_base_signatures_forge : forall (K : Fld) (sk : skey K) (pk : pkey K) (h m0 m1 m : K),
  key_ok K sk pk -> h <> f0 -> m1 - m0 <> f0 -> length (sk_ys sk) = 1%nat ->
  let s0 := sign sk h [m0] in let s1 := sign sk h [m1] in
  verify pk [m] (h, snd s0 + (m - m0) / (m1 - m0) * (snd s1 - snd s0)) = true.
Proof. exact shared_base_signatures_forge. Qed.

Print Assumptions C13_prover_refuses_negative.
Print Assumptions C13_prover_accepts_nonnegative.
Print Assumptions C13_digits_spec.
Print Assumptions C13_digit_sum_bound.
Print Assumptions C13_two_pow_63_below_q.
Print Assumptions C13_range_complete.
Print Assumptions C13_range_verify_iff.
Print Assumptions C13_wrong_link_rejected.
Print Assumptions C13_range_special_soundness.
Print Assumptions C13_validate_iff.
Print Assumptions C13_nonvacuous.
Print Assumptions C13_shared_base_signatures_forge.
