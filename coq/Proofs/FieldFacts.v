(** What the other proof files share: lists ([upd], [map2], [nth], chunks), a retry loop, equations in a bundled field that
    differ in one place, inner products, integers into the field, positional numerals. *)
From ZK Require Import Model.Field.
Local Open Scope fld_scope.

Lemma if_Some {A} (b : bool) (x v : A) : (if b then Some x else None) = Some v <-> b = true /\ v = x.
Proof. destruct b; split; [intros [= <-]|intros [_ ->]|discriminate|intros [[=] _]]; auto. Qed.

Lemma upd_length {A} (j : nat) (v : A) (l : list A) : length (upd j v l) = length l.
Proof. revert j; induction l as [|x l IH]; intros [|j]; simpl; auto. Qed.

Lemma nth_upd_same {A} (j : nat) (v d : A) (l : list A) : (j < length l)%nat -> nth j (upd j v l) d = v.
Proof. revert j; induction l as [|x l IH]; intros [|j] H; simpl in *; try lia; auto. apply IH; lia. Qed.

Lemma nth_upd_other {A} (i j : nat) (v d : A) (l : list A) : i <> j -> nth i (upd j v l) d = nth i l d.
Proof. revert i j; induction l as [|x l IH]; intros [|i] [|j] H; simpl; try congruence; auto. Qed.

Lemma map2_length {A B C} (f : A -> B -> C) a b : length a = length b -> length (map2 f a b) = length a.
Proof. revert b; induction a as [|x a IH]; intros [|y b] H; simpl in *; auto. Qed.

Lemma nth_map2 {A B C} (f : A -> B -> C) : forall a b i da db dc, (i < length a)%nat -> length a = length b ->
  nth i (map2 f a b) dc = f (nth i a da) (nth i b db).
Proof. induction a as [|x a IH]; intros [|y b] i da db dc Hi Hl; simpl in *; try lia.
  destruct i; [reflexivity|]. apply IH; lia. Qed.

(** without a bound on [i], for the default that [f] maps the two defaults to *)
Lemma nth_map2_dflt {A B C} (f : A -> B -> C) a b i da db : length a = length b ->
  nth i (map2 f a b) (f da db) = f (nth i a da) (nth i b db).
Proof. revert b i; induction a as [|x a IH]; intros [|y b] [|i] Hl; simpl in *; try discriminate; auto. Qed.

Lemma map2_map {A A' B B' C} (f : A' -> B' -> C) (g : A -> A') (h : B -> B') a b :
  map2 f (map g a) (map h b) = map2 (fun x y => f (g x) (h y)) a b.
Proof. revert b; induction a as [|x a IH]; intros [|y b]; simpl; congruence. Qed.

Lemma map_map2 {A B C D} (g : C -> D) (f : A -> B -> C) a b : map g (map2 f a b) = map2 (fun x y => g (f x y)) a b.
Proof. revert b; induction a as [|x a IH]; intros [|y b]; simpl; congruence. Qed.

Lemma Forall_map2 {A B C} (P : A -> Prop) (Q : B -> Prop) (R : C -> Prop) (f : A -> B -> C) :
  (forall x y, P x -> Q y -> R (f x y)) -> forall a b, Forall P a -> Forall Q b -> Forall R (map2 f a b).
Proof. intros H a b Ha. revert b. induction Ha; intros b Hb; destruct Hb; simpl; auto. Qed.

Lemma forallb_nth {A} (p : A -> bool) (l : list A) (i : nat) (d : A) :
  forallb p l = true -> (i < length l)%nat -> p (nth i l d) = true.
Proof. intros H Hi. rewrite forallb_forall in H. apply H, nth_In, Hi. Qed.

Lemma map_inj {A B} (f : A -> B) (Hf : forall x y, f x = f y -> x = y) l l' : map f l = map f l' -> l = l'.
Proof. revert l'; induction l as [|x l IH]; intros [|y l'] H; try discriminate; auto.
  injection H as H1 H2. f_equal; auto. Qed.

Lemma Forall2_trivial {A B} (R : A -> B -> Prop) l l' : (forall a b, R a b) -> length l = length l' -> Forall2 R l l'.
Proof. intros HR. revert l'; induction l; intros [|? ?] L; try discriminate; auto. Qed.

Lemma Forall2_len {A B} (R : A -> B -> Prop) l l' : Forall2 R l l' -> length l = length l'.
Proof. induction 1; simpl; congruence. Qed.

Lemma app_inj_len {A} (a a' b b' : list A) : length a = length a' -> a ++ b = a' ++ b' -> a = a' /\ b = b'.
Proof. revert a'; induction a as [|x a IH]; intros [|x' a'] Hl H; simpl in *; try discriminate; auto.
  injection H as -> H. destruct (IH a' ltac:(congruence) H) as [-> ->]. auto. Qed.

(** chunks whose widths agree pairwise concatenate injectively, also in front of a remainder; [g] is what a chunk determines *)
Lemma flat_map_app_inj {A B C} (f : A -> list B) (g : A -> C) l l' r r' :
  (forall a a', f a = f a' -> g a = g a') ->
  Forall2 (fun a a' => length (f a) = length (f a')) l l' ->
  flat_map f l ++ r = flat_map f l' ++ r' -> map g l = map g l' /\ r = r'.
Proof. intros Hg. induction 1 as [|a a' l l' Hw _ IH]; simpl; intros H; [auto|].
  rewrite <- !app_assoc in H. apply app_inj_len in H; [|exact Hw]. destruct H as [Ha H].
  destruct (IH H) as [-> ->]. now rewrite (Hg _ _ Ha). Qed.

Lemma flat_map_map2_ext {A B C D} (g : C -> list D) (f f' : A -> B -> C) : (forall x y, g (f x y) = g (f' x y)) ->
  forall a b, flat_map g (map2 f a b) = flat_map g (map2 f' a b).
Proof. intros E. induction a as [|x a IH]; intros [|y b]; simpl; try reflexivity. now rewrite E, IH. Qed.

(** a retry loop over a stream of draws: any [f] with these two equations ([first_accepted p], [next_nonzero]) returns
    the first draw that [p] accepts, with what follows it, and finds one if there is one *)
Section Retry.
Context {A R : Type} (p : A -> bool) (ret : A -> list A -> R) (f : list A -> option R).
Hypothesis f_nil : f [] = None.
Hypothesis f_cons : forall y l, f (y :: l) = if p y then Some (ret y l) else f l.

Lemma retry_spec draws r : f draws = Some r ->
  exists pre x post, draws = pre ++ x :: post /\ r = ret x post /\ p x = true /\ Forall (fun y => p y = false) pre.
Proof. induction draws as [|y draws IH]; rewrite ?f_nil, ?f_cons; [discriminate|]. destruct (p y) eqn:E.
  - intros [= <-]. now exists [], y, draws.
  - intros (pre & x & post & -> & Hr & Hx & Hpre)%IH. exists (y :: pre), x, post. auto. Qed.

Lemma retry_some draws : (exists y, In y draws /\ p y = true) -> exists r, f draws = Some r.
Proof. induction draws as [|y draws IH]; intros (z & Hz & Hp); [contradiction|]. rewrite f_cons. destruct (p y) eqn:E; [eauto|].
  destruct Hz as [->|Hz]; [congruence | eauto]. Qed.
End Retry.

Section Facts.
Variable K : Fld.
Add Field FactsField : (Fth K).

Lemma feqbP (a b : K) : reflect (a = b) (a =? b).
Proof. destruct (a =? b) eqn:E; constructor.
  - now apply feqb_ok.
  - intros H. apply feqb_ok in H. congruence. Qed.

Lemma feqb_refl (a : K) : (a =? a) = true.
Proof. now apply feqb_ok. Qed.

Lemma feqb_false (a b : K) : (a =? b) = false <-> a <> b.
Proof. destruct (feqbP a b); split; congruence. Qed.

Lemma fneqb_true (a b : K) : fneqb a b = true <-> a <> b.
Proof. unfold fneqb. rewrite negb_true_iff. apply feqb_false. Qed.

Lemma fneqb_false (a b : K) : fneqb a b = false <-> a = b.
Proof. unfold fneqb. rewrite negb_false_iff. apply feqb_ok. Qed.

Lemma f1_neq_f0 : (f1 : K) <> f0.
Proof. exact (F_1_neq_0 (Fth K)). Qed.

Lemma fmul_eq0_iff (a b : K) : a * b = f0 <-> a = f0 \/ b = f0.
Proof. split; [|intros [-> | ->]; ring]. intros H. destruct (feqbP a f0) as [|Ha]; [now left|right].
  assert (E : b = (f1 / a) * (a * b)) by (field; assumption).
  rewrite E, H. ring. Qed.

Lemma fmul_neq0 (a b : K) : a <> f0 -> b <> f0 -> a * b <> f0.
Proof. intros Ha Hb [H|H]%fmul_eq0_iff; contradiction. Qed.

(** ** one changed place.  An equation [l = r] whose two sides differ by [t] holds iff [t = 0]; when [t] is
    [a * (x - y)] - a value [x] put where [y] was, entering with coefficient [a] - that is [a = 0 \/ x = y].
    The difference is a HYPOTHESIS, closed by [ring] at each use, so no side has to have a particular shape. *)
Lemma eq_iff_diff0 (l r t : K) : l - r = t -> (l = r <-> t = f0).
Proof. intros <-. split; intros H.
  - rewrite H. ring.
  - transitivity (l - r + r); [ring | rewrite H; ring]. Qed.

Lemma fsub_eq0 (a b : K) : a - b = f0 <-> a = b.
Proof. symmetry. now apply eq_iff_diff0. Qed.

(** the pairing check  e(a, X) * e(b, -g) = 1  as the equation it stands for *)
Lemma pairing_eq (l b g : K) : l + b * - g = f0 <-> l = b * g.
Proof. symmetry. apply eq_iff_diff0. ring. Qed.

Lemma eq_iff_factor (a x y l r : K) : l - r = a * (x - y) -> (l = r <-> a = f0 \/ x = y).
Proof. intros D. now rewrite (eq_iff_diff0 l r _ D), fmul_eq0_iff, fsub_eq0. Qed.

Lemma eq_scaled (k l0 r0 l r : K) : l0 = r0 -> l - r = k * (l0 - r0) -> l = r.
Proof. intros E D. apply (eq_iff_diff0 l r _ D). rewrite E. ring. Qed.

Lemma factor_inj (a x y l r : K) : l = r -> a <> f0 -> l - r = a * (x - y) -> x = y.
Proof. intros E Ha D. destruct (proj1 (eq_iff_factor _ _ _ _ _ D) E); [contradiction | assumption]. Qed.

Lemma changed_eq_iff (a x y l0 r0 l r : K) : l0 = r0 -> a <> f0 -> l - r - (l0 - r0) = a * (x - y) -> (l = r <-> x = y).
Proof. intros E Ha D. rewrite (eq_iff_factor a x y l r); [tauto|]. rewrite <- D, E. ring. Qed.

Lemma changed_feqb_false (a x y l0 r0 l r : K) : (l0 =? r0) = true -> a <> f0 -> x <> y ->
  l - r - (l0 - r0) = a * (x - y) -> (l =? r) = false.
Proof. intros E Ha Hne D. apply feqb_ok in E. apply feqb_false. now rewrite (changed_eq_iff _ _ _ _ _ _ _ E Ha D). Qed.

Lemma fmul_cancel_l (a b c : K) : a <> f0 -> a * b = a * c -> b = c.
Proof. intros Ha H. apply (factor_inj a b c _ _ H Ha). ring. Qed.

Lemma fadd_cancel_l (a b c : K) : a + b = a + c -> b = c.
Proof. intros H. apply (factor_inj f1 b c _ _ H f1_neq_f0). ring. Qed.

(** one response [c * v + k] answers one statement [v] unless [c = 0] *)
Lemma affine_inj (a b x y : K) : a <> f0 -> a * x + b = a * y + b -> x = y.
Proof. intros Ha E. apply (factor_inj a x y _ _ E Ha). ring. Qed.

Lemma ip_nil_r (gs : list K) : ip gs [] = f0.
Proof. destruct gs; reflexivity. Qed.

Lemma ip_zero_r (gs : list K) n : ip gs (repeat f0 n) = f0.
Proof. revert n; induction gs as [|g gs IH]; intros [|n]; simpl; try reflexivity. rewrite IH. ring. Qed.

Lemma ip_comm (a b : list K) : ip a b = ip b a.
Proof. revert b; induction a as [|x a IH]; intros [|y b]; simpl; try reflexivity. rewrite IH. ring. Qed.

Lemma ip_map_mul (g : K) (ys ms : list K) : ip (map (fun y => g * y) ys) ms = g * ip ys ms.
Proof. revert ms; induction ys as [|y ys IH]; intros [|m ms]; simpl; try ring.
  rewrite IH. ring. Qed.

(** [ip gs] commutes with any entrywise linear combination [f x y = a * x + b * y] of two lists of one length:
    sum of messages ([fadd]), Schnorr responses ([c * m + k]), extraction ([ext d]) *)
Lemma ip_map2_lin (f : K -> K -> K) (a b : K) : (forall x y, f x y = a * x + b * y) ->
  forall gs ms ks, length ms = length ks -> ip gs (map2 f ms ks) = a * ip gs ms + b * ip gs ks.
Proof. intros Hf. induction gs as [|g gs IH]; intros [|m ms] [|k ks] H; simpl in *; try discriminate; try ring.
  rewrite IH, Hf by congruence. ring. Qed.

Lemma ip_map_scale (c : K) (gs ms : list K) : ip gs (map (fun m => c * m) ms) = c * ip gs ms.
Proof. now rewrite ip_comm, ip_map_mul, ip_comm. Qed.

Lemma ip_upd (gs ms : list K) (j : nat) (v : K) : (j < length ms)%nat -> (j < length gs)%nat ->
  ip gs (upd j v ms) = ip gs ms + nth j gs f0 * (v - nth j ms f0).
Proof. revert ms j; induction gs as [|g gs IH]; intros [|m ms] [|j] Hm Hg; simpl in *; try lia.
  - ring.
  - rewrite IH by lia. ring. Qed.

Lemma ip_upd_l (gs ms : list K) (j : nat) (v : K) : (j < length gs)%nat -> (j < length ms)%nat ->
  ip (upd j v gs) ms = ip gs ms + nth j ms f0 * (v - nth j gs f0).
Proof. intros. rewrite ip_comm, ip_upd, (ip_comm ms) by assumption. reflexivity. Qed.

Lemma of_pos_succ p : of_pos (K:=K) (Pos.succ p) = of_pos p + f1.
Proof. induction p as [p IH|p IH|]; simpl; try rewrite IH; ring. Qed.
Lemma of_pos_add p r : of_pos (K:=K) (p + r) = of_pos p + of_pos r.
Proof. revert r; induction p as [p IH|p IH|]; intros [r|r|]; simpl;
  rewrite ?Pos.add_carry_spec, ?of_pos_succ, ?IH; try ring. Qed.
Lemma of_pos_mul p r : of_pos (K:=K) (p * r) = of_pos p * of_pos r.
Proof. induction p as [p IH|p IH|]; simpl; rewrite ?of_pos_add; simpl; rewrite ?IH; ring. Qed.

Lemma of_Z_pos_sub p r : of_Z (K:=K) (Z.pos_sub p r) = of_pos p - of_pos r.
Proof. rewrite Z.pos_sub_spec. destruct (Pos.compare_spec p r) as [->|H|H]; simpl.
  - ring.
  - rewrite <- (Pos.sub_add r p H) at 2. rewrite of_pos_add. ring.
  - rewrite <- (Pos.sub_add p r H) at 2. rewrite of_pos_add. ring. Qed.

Lemma of_Z_add a b : of_Z (K:=K) (a + b) = of_Z a + of_Z b.
Proof. destruct a, b; simpl; rewrite ?of_pos_add, ?of_Z_pos_sub; ring. Qed.
Lemma of_Z_opp a : of_Z (K:=K) (- a) = - of_Z a.
Proof. destruct a; simpl; ring. Qed.
Lemma of_Z_sub a b : of_Z (K:=K) (a - b) = of_Z a - of_Z b.
Proof. unfold Z.sub. rewrite of_Z_add, of_Z_opp. ring. Qed.
Lemma of_Z_mul a b : of_Z (K:=K) (a * b) = of_Z a * of_Z b.
Proof. destruct a, b; simpl; rewrite ?of_pos_mul; ring. Qed.
Lemma of_Z_0 : of_Z (K:=K) 0 = f0. Proof. reflexivity. Qed.
Lemma of_Z_1 : of_Z (K:=K) 1 = f1. Proof. reflexivity. Qed.

End Facts.

(** ** positional numerals, least significant digit first, in any base [B].  The model's [Z_to_le] / [le_to_Z] (bytes) are
    [to_base 256] / [of_base 256] and its [digits_go] / [zweighted] (range digits) are [to_base 128] / [of_base 128], by
    conversion: their lemmas are these, at [B := 256] and [B := 128]. *)
Section Base.
Variable B : Z.
Hypothesis HB : (0 < B)%Z.
Local Open Scope Z_scope.

Fixpoint to_base (n : nat) (z : Z) : list Z := match n with O => [] | S n => z mod B :: to_base n (z / B) end.
Fixpoint of_base (ds : list Z) : Z := match ds with [] => 0 | d :: ds => d + B * of_base ds end.
Definition digit (d : Z) : Prop := 0 <= d < B.

Lemma to_base_length n z : length (to_base n z) = n.
Proof. revert z; induction n; simpl; auto. Qed.

Lemma to_base_digits n z : Forall digit (to_base n z).
Proof. revert z; induction n; intros z; constructor; auto. now apply Z.mod_pos_bound. Qed.

Lemma of_base_range ds : Forall digit ds -> 0 <= of_base ds < B ^ Z.of_nat (length ds).
Proof. induction 1 as [|d ds Hd _ IH]; [simpl; lia|]. unfold digit in Hd.
  cbn [of_base length]. rewrite Nat2Z.inj_succ, Z.pow_succ_r by lia. nia. Qed.

Lemma of_to_base n z : 0 <= z < B ^ Z.of_nat n -> of_base (to_base n z) = z.
Proof. revert z; induction n as [|n IH]; intros z Hz; [simpl in *; lia|].
  rewrite Nat2Z.inj_succ, Z.pow_succ_r in Hz by lia. cbn [to_base of_base]. rewrite IH.
  - pose proof (Z.div_mod z B). lia.
  - split; [apply Z.div_pos; lia | apply Z.div_lt_upper_bound; lia]. Qed.

Lemma to_of_base ds : Forall digit ds -> to_base (length ds) (of_base ds) = ds.
Proof. induction 1 as [|d ds Hd _ IH]; [reflexivity|]. unfold digit in Hd. cbn [of_base length to_base].
  rewrite <- (Z.mod_unique _ B (of_base ds) d), <- (Z.div_unique _ B (of_base ds) d), IH by lia. reflexivity. Qed.
End Base.
