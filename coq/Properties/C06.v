(** C06 — An accepted proof is rejected under any other statement, key or context.
    Shape: the verifiers factor as  verify t p = verify_with t p (chal (transcript t p)).
    Proved: (1) a proof with a non-identity commitment is accepted under at most ONE challenge value, which is
    a function of the proof and the parameters; (2) acceptance under two statements that differ in a component
    used in an equation forces that challenge to be 0; (3) the two transcripts differ (binding, C12).  Hence a
    second acceptance requires the hash to send a different transcript to one prescribed value (for equation
    components: to 0) - the random-oracle step is the named gap.  Known finding F5: channel ids enter only
    through their scalar, so ids congruent mod q are indistinguishable ([C06_cid_alias_exists]). *)
From ZK Require Import Model.Field Model.QBls Model.Pedersen Model.PS Model.Schnorr Model.Abacus Proofs.FieldFacts
  Proofs.PSProofs Proofs.SchnorrProofs Proofs.EstablishProofs Proofs.PayProofs Proofs.ChallengeProofs Proofs.IdsProofs.
Local Open Scope fld_scope.

Theorem C06_unique_accepting_challenge : forall (K : Fld) (h : K) gs p c c', cp_C p <> f0 ->
  cp_verify h gs p c = true -> cp_verify h gs p c' = true -> c = c'.
Proof. exact unique_accepting_challenge. Qed.

Theorem C06_accepting_challenge_formula : forall (K : Fld) (h : K) gs (p : cproof K) c, cp_C p <> f0 ->
  cp_verify h gs p c = true -> c = (commit h gs (cp_rs p) (cp_rbf p) - cp_T p) / cp_C p.
Proof. exact accepting_challenge_formula. Qed.

(** establish: another (channel-id scalar, balances) tuple with the same challenge forces c = 0 *)
Theorem C06_establish_two_statements : forall (K : Fld) (close_tag : K) (pk : pkey K) cid cb mb cid' cb' mb' (p : eproof K) c,
  establish_rel K close_tag pk cid cb mb p c -> establish_rel K close_tag pk cid' cb' mb' p c ->
  (cid, cb, mb) <> (cid', cb', mb') -> c = f0.
Proof. intros K close_tag pk cid cb mb cid' cb' mb' p c.
  intros (_ & _ & A0 & _ & _ & _ & A3 & _ & A4 & _) (_ & _ & A0' & _ & _ & _ & A3' & _ & A4' & _) Hne.
  destruct (feqbP K c f0) as [|Hc]; [assumption|]. contradict Hne.
  f_equal; [f_equal|]; [apply (affine_inj K c (e_kcid p)) | apply (affine_inj K c (e_kcb p)) | apply (affine_inj K c (e_kmb p))];
    congruence. Qed.

Theorem C06_establish_unique_challenge : forall (K : Fld) (close_tag : K) (pk : pkey K) cid cb mb cid' cb' mb' (p : eproof K) c c',
  cp_C (e_sp p) <> f0 ->
  establish_rel K close_tag pk cid cb mb p c -> establish_rel K close_tag pk cid' cb' mb' p c' -> c = c'.
Proof. intros K close_tag pk cid cb mb cid' cb' mb' p c c' HC (S1 & _) (S1' & _).
  apply (unique_accepting_challenge K (pk_g1 pk) (pk_y1s pk) (e_sp p)); auto; now apply cp_verify_iff. Qed.

(** pay: another nonce / another amount with the same challenge forces c = 0 *)
Theorem C06_pay_two_nonces : forall (K : Fld) (close_tag : K) (pk : pkey K) rp hr gr nonce nonce' eps eps' (p : pproof K) c,
  pay_rel K close_tag pk rp hr gr nonce eps p c -> pay_rel K close_tag pk rp hr gr nonce' eps' p c ->
  nonce <> nonce' -> c = f0.
Proof. exact one_token_two_nonces. Qed.

Theorem C06_replace_amount : forall (K : Fld) (close_tag : K) (pk : pkey K) rp hr gr nonce eps eps' (p : pproof K) c,
  pay_rel K close_tag pk rp hr gr nonce eps p c -> pay_rel K close_tag pk rp hr gr nonce eps' p c ->
  eps <> eps' -> c = f0.
Proof. exact replace_amount. Qed.

(** the revocation-commitment parameters are not hashed: acceptance under other parameters is exactly a linear
    condition on the two responses (false for honestly random responses unless the parameters are equal) *)
Theorem C06_replace_rev_params : forall (K : Fld) (hr gr hr' gr' : K) (p : cproof K) c, length (cp_rs p) = 1%nat ->
  cp_verify hr [gr] p c = true ->
  (cp_verify hr' [gr'] p c = true <-> cp_rbf p * (hr' - hr) + rs_at p 0 * (gr' - gr) = f0).
Proof. exact replace_rev_params. Qed.

(** key / range parameters / context / channel id / balances / nonce are hashed: the transcripts differ *)
Theorem C06_establish_transcripts_differ : forall (K : Fld) (close_tag : K) (pk pk' : pkey K)
    cid cb mb cid' cb' mb' (p : eproof K) ctx ctx',
  length (pk_y1s pk) = length (pk_y1s pk') -> length (pk_y2s pk) = length (pk_y2s pk') ->
  (pk, cid, cb, mb, ctx) <> (pk', cid', cb', mb', ctx') ->
  establish_transcript close_tag pk cid cb mb p ctx <> establish_transcript close_tag pk' cid' cb' mb' p ctx'.
Proof. intros K close_tag pk pk' cid cb mb cid' cb' mb' p ctx ctx' L1 L2 Hne E. apply Hne.
  destruct (establish_transcript_binds K close_tag pk pk' cid cb mb cid' cb' mb' p p ctx ctx' L1 L2 E)
    as (-> & -> & -> & -> & _ & _ & _ & _ & _ & _ & _ & _ & ->). reflexivity. Qed.

(** a valid closing signature rejects any single-field substitution in the close-state message (as scalars) *)
Theorem C06_close_message_substitution : forall (K : Fld) (pk : pkey K) ms s j v,
  verify pk ms s = true -> (j < length ms)%nat -> (j < length (pk_y2s pk))%nat ->
  nth j (pk_y2s pk) f0 <> f0 -> v <> nth j ms f0 -> verify pk (upd j v ms) s = false.
Proof. exact single_coordinate_rejects. Qed.

(** known finding F5: two different 256-bit channel ids with one scalar *)
Theorem C06_cid_alias_exists : exists n n' : Z, n <> n' /\ (0 <= n < 2 ^ 256)%Z /\ (0 <= n' < 2 ^ 256)%Z /\
  @of_Z Fq n = @of_Z Fq n'.
Proof. exact cid_alias_exists. Qed.

(** ... and the known class is exact: two ids share a scalar if and only if they are congruent modulo q; in particular changing
    any single bit of a 256-bit id changes its scalar *)
Theorem C06_cid_scalars_equal_iff_congruent : forall n n' : Z, @of_Z Fq n = @of_Z Fq n' <-> (n mod q_bls = n' mod q_bls)%Z.
Proof. exact scalars_equal_iff_congruent. Qed.

Theorem C06_cid_bit_flip_changes_scalar : forall n k : Z, (0 <= k < 256)%Z ->
  @of_Z Fq n <> @of_Z Fq (n + 2 ^ k) /\ @of_Z Fq n <> @of_Z Fq (n - 2 ^ k).
Proof. exact cid_bit_flip_changes_scalar. Qed.

Print Assumptions C06_unique_accepting_challenge.
Print Assumptions C06_accepting_challenge_formula.
Print Assumptions C06_establish_two_statements.
Print Assumptions C06_establish_unique_challenge.
Print Assumptions C06_pay_two_nonces.
Print Assumptions C06_replace_amount.
Print Assumptions C06_replace_rev_params.
Print Assumptions C06_establish_transcripts_differ.
Print Assumptions C06_close_message_substitution.
Print Assumptions C06_cid_alias_exists.
Print Assumptions C06_cid_scalars_equal_iff_congruent.
Print Assumptions C06_cid_bit_flip_changes_scalar.
