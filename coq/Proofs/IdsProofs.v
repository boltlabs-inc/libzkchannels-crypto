From Coq Require Import Znumtheory Zpow_facts.
From ZK Require Import Model.Field Model.Zq Model.QBls Model.Ids Proofs.FieldFacts.
Open Scope Z_scope.

(** ** the integer image in the executable field is reduction modulo q *)
Lemma of_pos_fq p : @of_pos Fq p = fq (Zpos p).
Proof. induction p as [p IH|p IH|]; cbn [of_pos].
  - rewrite IH. change (@fadd Fq) with (zadd q_bls). change (@f1 Fq) with (zq_of_Z q_bls 1). unfold fq.
    rewrite !(add_of q_bls q_bls_prime). f_equal. lia.
  - rewrite IH. change (@fadd Fq) with (zadd q_bls). unfold fq. rewrite (add_of q_bls q_bls_prime). f_equal. lia.
  - reflexivity. Qed.

Lemma of_Z_fq z : @of_Z Fq z = fq z.
Proof. destruct z as [|p|p]; cbn [of_Z].
  - reflexivity.
  - apply of_pos_fq.
  - rewrite of_pos_fq. change (@fopp Fq) with (zopp q_bls). now rewrite (opp_of q_bls q_bls_prime). Qed.

(** two integers have one scalar exactly when they are congruent modulo q: the ids congruent modulo q (F5) are the whole
    set of invisible channel-id substitutions; every other substitution changes the scalar *)
Theorem scalars_equal_iff_congruent (n n' : Z) : @of_Z Fq n = @of_Z Fq n' <-> n mod q_bls = n' mod q_bls.
Proof. rewrite !of_Z_fq. split; [apply (f_equal (@val q_bls)) | intros E; now apply Zq_eq]. Qed.

(** the two facts about congruence that are used: congruent integers closer than the modulus are equal, and q, an odd
    prime, divides no power of two *)
Lemma mod_inj_within q a a' : - q < a - a' < q -> a mod q = a' mod q -> a = a'.
Proof. intros Hd E. assert (D : (a - a') mod q = 0) by (rewrite Zminus_mod, E, Z.sub_diag; apply Zmod_0_l).
  apply Z.mod_divide in D; [|lia]. destruct D as [t Ht]. assert (t = 0) by nia. lia. Qed.

Lemma pow2_mod_q k : 0 <= k -> 2 ^ k mod q_bls <> 0.
Proof. intros Hk E. apply Z.mod_divide in E; [|discriminate].
  now apply (prime_power_prime _ _ _ Hk q_bls_prime prime_2) in E. Qed.

Theorem cid_alias (n : Z) : @of_Z Fq n = @of_Z Fq (n + q_bls).
Proof. apply scalars_equal_iff_congruent. now rewrite <- (Z_mod_plus_full n 1), Z.mul_1_l. Qed.

Corollary cid_bit_flip_changes_scalar (n : Z) (k : Z) : 0 <= k < 256 -> @of_Z Fq n <> @of_Z Fq (n + 2 ^ k) /\ @of_Z Fq n <> @of_Z Fq (n - 2 ^ k).
Proof. intros [Hk _]. split; rewrite scalars_equal_iff_congruent; intros E; apply (pow2_mod_q k Hk).
  - replace (2 ^ k) with (n + 2 ^ k - n) by lia. now rewrite Zminus_mod, E, Z.sub_diag.
  - replace (2 ^ k) with (n - (n - 2 ^ k)) by lia. now rewrite Zminus_mod, E, Z.sub_diag. Qed.

(** integers closer than q have different scalars: in particular the scalar encoding is injective on all i64 amounts and
    on all u64 balances *)
Theorem scalar_encoding_injective_within_q (a a' : Z) : - q_bls < a - a' < q_bls -> @of_Z Fq a = @of_Z Fq a' -> a = a'.
Proof. intros Hd E. now apply (mod_inj_within q_bls), scalars_equal_iff_congruent. Qed.

Theorem cid_alias_exists : exists n n' : Z, n <> n' /\ 0 <= n < 2 ^ 256 /\ 0 <= n' < 2 ^ 256 /\ @of_Z Fq n = @of_Z Fq n'.
Proof. exists 5, (5 + q_bls). split; [unfold q_bls; lia|]. split; [lia|]. split; [unfold q_bls; lia|].
  apply cid_alias. Qed.

Section P.
Variable K : Fld.
Variable q : Z.
Variable H : list Z -> list Z.
Variable close_tag : K.

(** for EVERY stream of draws the generated nonce is not the close tag (it is the first draw that is not) *)
Theorem nonce_new_not_close (draws : list K) n : nonce_new close_tag draws = Some n ->
  n <> close_tag /\ exists pre post, draws = pre ++ n :: post /\ Forall (fun y => y = close_tag) pre.
Proof. intros (pre & x & post & -> & -> & Hx & Hpre)%(retry_spec (nonce_ok close_tag) (fun x _ => x) _ eq_refl (fun _ _ => eq_refl)).
  split; [now apply (fneqb_true K)|]. exists pre, post. split; [reflexivity|].
  eapply Forall_impl; [|exact Hpre]. intros y. apply (fneqb_false K). Qed.

Theorem nonce_decode_rejects_close : nonce_decode close_tag close_tag = None.
Proof. unfold nonce_decode, nonce_ok, fneqb. now rewrite (feqb_refl K). Qed.

Variable enc : K -> list Z.

Theorem revpair_search_wf secret fuel i0 l s i : revpair_search q H enc secret fuel i0 = Some (l, s, i) ->
  s = secret /\ lock_of q H enc secret i = Some l /\ i0 <= i < i0 + Z.of_nat fuel.
Proof. revert i0; induction fuel as [|fuel IH]; intros i0; simpl; [discriminate|].
  destruct (lock_of q H enc secret i0) as [l0|] eqn:E.
  - intros [= <- <- <-]. split; [reflexivity|]. split; [exact E|lia].
  - intros Hs. destruct (IH _ Hs) as (-> & Hl & Hi). split; [reflexivity|]. split; [exact Hl|lia]. Qed.

Theorem revpair_decode_accepts lock secret index : lock_of q H enc secret index = Some lock ->
  revpair_decode q H enc lock secret index = Some (lock, secret, index).
Proof. intros E. unfold revpair_decode. rewrite E, (feqb_refl K). reflexivity. Qed.

End P.

(** ** channel id: the hashed byte string changes when exactly one of the five inputs changes *)
Definition cid_preimage (mr cr pkb ma ca : list Z) : list Z := mr ++ cr ++ pkb ++ ma ++ ca.

Theorem channel_id_preimage_single_change mr cr pkb ma ca mr' cr' pkb' ma' ca' :
  length mr = length mr' -> length cr = length cr' -> length pkb = length pkb' ->
  (* exactly one input differs *)
  ((mr <> mr' /\ cr = cr' /\ pkb = pkb' /\ ma = ma' /\ ca = ca') \/
   (mr = mr' /\ cr <> cr' /\ pkb = pkb' /\ ma = ma' /\ ca = ca') \/
   (mr = mr' /\ cr = cr' /\ pkb <> pkb' /\ ma = ma' /\ ca = ca') \/
   (mr = mr' /\ cr = cr' /\ pkb = pkb' /\ ma <> ma' /\ ca = ca') \/
   (mr = mr' /\ cr = cr' /\ pkb = pkb' /\ ma = ma' /\ ca <> ca')) ->
  cid_preimage mr cr pkb ma ca <> cid_preimage mr' cr' pkb' ma' ca'.
Proof. intros L1 L2 L3 Hx E.
  apply app_inj_len in E; [|exact L1]. destruct E as [E1 E].
  apply app_inj_len in E; [|exact L2]. destruct E as [E2 E].
  apply app_inj_len in E; [|exact L3]. destruct E as [E3 E].
  destruct Hx as [H1|[H1|[H1|[H1|H1]]]]; destruct H1 as (A & B & C & D & F); try contradiction.
  - subst ca'. apply app_inv_tail in E. contradiction.
  - subst ma'. apply app_inv_head in E. contradiction. Qed.
