(** * The BLS12-381 scalar modulus is prime (Pocklington certificate, standard library only). *)
From Coq Require Import ZArith Znumtheory Zpow_facts Lia List Bool.
Import ListNotations. Open Scope Z_scope.

Fixpoint no_div (fuel : nat) (d n : Z) : bool :=
  match fuel with
  | O => false
  | S f => if n <? d * d then true else if n mod d =? 0 then false else no_div f (d + 1) n
  end.

Lemma no_div_sound fuel : forall d n, 0 < d -> no_div fuel d n = true ->
  forall k, d <= k -> k * k <= n -> ~ (k | n).
Proof.
  induction fuel as [|f IH]; intros d n Hd H k Hk Hkk Hdiv; cbn in H; [discriminate|].
  destruct (n <? d * d) eqn:E1.
  - apply Z.ltb_lt in E1. nia.
  - destruct (n mod d =? 0) eqn:E2; [discriminate|].
    apply Z.eqb_neq in E2.
    destruct (Z.eq_dec k d) as [->|Hne].
    + apply E2. apply Zdivide_mod; assumption.
    + apply (IH (d + 1) n) with (k := k); try lia; assumption.
Qed.

(** trial division by 2, 3, ...; [fuel] has to exceed the square root of [n] for [no_div] to say yes *)
Lemma prime_trial fuel n : 1 < n -> no_div fuel 2 n = true -> prime n.
Proof.
  intros Hn H. apply prime_alt. split; [exact Hn|].
  intros m Hm [c Hc].
  assert (Hcpos : 1 < c < n) by nia.
  destruct (Z_le_gt_dec (m * m) n) as [Hle|Hgt].
  - apply (no_div_sound fuel 2 n ltac:(lia) H m); try lia. exists c; exact Hc.
  - assert (c * c <= n) by nia.
    apply (no_div_sound fuel 2 n ltac:(lia) H c); try lia. exists m; lia.
Qed.

Definition fprod (fs : list (Z * Z)) : Z := fold_right (fun pe acc => fst pe ^ snd pe * acc) 1 fs.

Lemma fprod_pos fs : Forall (fun pe => prime (fst pe) /\ 0 <= snd pe) fs -> 0 < fprod fs.
Proof. induction 1 as [|[p e] fs [Hp He] _ IH]; cbn in *; [lia|].
  apply Z.mul_pos_pos; [apply Z.pow_pos_nonneg; destruct Hp; lia | exact IH]. Qed.

Lemma factor_hit fs : Forall (fun pe => prime (fst pe) /\ 0 <= snd pe) fs ->
  forall k, 1 < k -> (k | fprod fs) -> exists pe, In pe fs /\ (fst pe | k).
Proof.
  induction fs as [|[p e] fs IH]; intros HF k Hk Hdiv; cbn in *.
  - apply Z.divide_1_r_nonneg in Hdiv; lia.
  - inversion HF as [|? ? [Hp He] HF']; subst.
    destruct (Zdivide_dec p k) as [Hpk|Hnpk].
    + exists (p, e); auto.
    + assert (rel_prime k (p ^ e)).
      { apply rel_prime_Zpower_r; [exact He|]. apply rel_prime_sym, prime_rel_prime; assumption. }
      assert (k | fprod fs) by (eapply Gauss; eauto).
      destruct (IH HF' k Hk H0) as [pe [Hin Hd]]. exists pe; auto.
Qed.

Lemma least (Q : Z -> Prop) (Qdec : forall z, {Q z} + {~ Q z}) :
  forall k, 0 < k -> Q k -> exists d, 0 < d <= k /\ Q d /\ forall e, 0 < e < d -> ~ Q e.
Proof.
  assert (A : forall m : nat, (forall e, 0 < e <= Z.of_nat m -> ~ Q e) \/
            (exists d, 0 < d <= Z.of_nat m /\ Q d /\ forall e, 0 < e < d -> ~ Q e)).
  { induction m as [|m [IH|IH]].
    - left; lia.
    - destruct (Qdec (Z.of_nat (S m))) as [Hq|Hq].
      + right. exists (Z.of_nat (S m)). split; [lia|]. split; [exact Hq|]. intros e He. apply IH; lia.
      + left. intros e He. destruct (Z.eq_dec e (Z.of_nat (S m))) as [->|Hne]; [exact Hq|]. apply IH; lia.
    - right. destruct IH as [d [Hd [Hq Hm]]]. exists d. split; [lia|]. split; assumption. }
  intros k Hk HQ. destruct (A (Z.to_nat k)) as [H|[d [Hd H]]].
  - exfalso. apply (H k); [lia|exact HQ].
  - exists d. split; [lia|exact H].
Qed.

Lemma pigeonhole (g : nat -> Z) (d : nat) (m : Z) : 0 <= m -> (forall i, (i < d)%nat -> 0 < g i <= m) ->
  (forall i j, (i < j < d)%nat -> g i <> g j) -> Z.of_nat d <= m.
Proof.
  intros Hm Hg Hinj.
  assert (ND : forall s len, (s + len <= d)%nat -> NoDup (map g (seq s len))).
  { intros s len; revert s; induction len as [|len IH]; intros s Hs; constructor; [|apply IH; lia].
    intros Hin. apply in_map_iff in Hin. destruct Hin as [j [Hj Hjin]]. apply in_seq in Hjin.
    apply (Hinj s j); [lia | now symmetry]. }
  assert (Hincl : incl (map g (seq 0 d)) (map Z.of_nat (seq 1 (Z.to_nat m)))).
  { intros x Hx. apply in_map_iff in Hx. destruct Hx as [i [<- Hin]]. apply in_seq in Hin.
    specialize (Hg i ltac:(lia)). apply in_map_iff. exists (Z.to_nat (g i)). split; [lia|]. apply in_seq. lia. }
  pose proof (NoDup_incl_length (ND 0%nat d ltac:(lia)) Hincl) as L. rewrite !map_length, !seq_length in L. lia.
Qed.

Section Ord.
Variables b r : Z.
Hypothesis Hr : 1 < r.

Definition pow_one e := b ^ e mod r = 1.

Lemma pow_add_mod i j : 0 <= i -> 0 <= j -> b ^ (i + j) mod r = ((b ^ i mod r) * (b ^ j mod r)) mod r.
Proof. intros. rewrite Z.pow_add_r by assumption. apply Z.mul_mod; lia. Qed.

(** [d] is the order: the least positive exponent with [pow_one] *)
Variable d : Z.
Hypothesis Hd : 0 < d.
Hypothesis HP : pow_one d.
Hypothesis Hmin : forall e, 0 < e < d -> ~ pow_one e.

Lemma pow_mul_one k : 0 <= k -> pow_one (d * k).
Proof. unfold pow_one in *; intros Hk. rewrite Z.pow_mul_r, Zpower_mod, HP, Z.pow_1_l by lia. apply Z.mod_1_l; lia. Qed.

Lemma ord_divides e : 0 <= e -> pow_one e -> (d | e).
Proof.
  intros He Pe. apply Zmod_divide; [lia|].
  pose proof (Z.div_mod e d ltac:(lia)) as E. pose proof (Z.mod_pos_bound e d Hd) as B.
  assert (0 <= e / d) by (apply Z.div_pos; lia).
  destruct (Z.eq_dec (e mod d) 0) as [|Hne]; [assumption|exfalso]. apply (Hmin (e mod d)); [lia|].
  unfold pow_one in *. rewrite E, pow_add_mod, (pow_mul_one (e / d)), Z.mul_1_l, Z.mod_mod in Pe by nia. exact Pe.
Qed.

(** the powers [b^0 .. b^(d-1)] are pairwise different and not 0 modulo [r] *)
Lemma ord_le : d <= r - 1.
Proof.
  rewrite <- (Z2Nat.id d) by lia. apply (pigeonhole (fun i => b ^ Z.of_nat i mod r)); [lia| |].
  - intros i Hi. pose proof (Z.mod_pos_bound (b ^ Z.of_nat i) r ltac:(lia)).
    enough (b ^ Z.of_nat i mod r <> 0) by lia. intros Hz. unfold pow_one in HP.
    replace d with (Z.of_nat i + (d - Z.of_nat i)) in HP by lia.
    rewrite pow_add_mod, Hz, Z.mul_0_l, Z.mod_0_l in HP by lia. discriminate.
  - intros i j Hij Heq. apply (Hmin (Z.of_nat i + (d - Z.of_nat j))); [lia|].
    unfold pow_one in *. rewrite pow_add_mod, Heq, <- pow_add_mod by lia.
    now replace (Z.of_nat j + (d - Z.of_nat j)) with d by lia.
Qed.
End Ord.

(** an element [b] of order [F = fprod fs] modulo [n] (its order modulo any divisor [r > 1] of [n] is [F] too, and at most [r - 1])
    forces every such divisor above [F] *)
Section Order.
Variables n b : Z.
Hypothesis Hn : 1 < n.
Variable fs : list (Z * Z).
Hypothesis Hfs : Forall (fun pe => prime (fst pe) /\ 0 <= snd pe) fs.
Hypothesis H1 : b ^ fprod fs mod n = 1.
Hypothesis H2 : forall pe, In pe fs -> rel_prime (b ^ (fprod fs / fst pe) mod n - 1) n.

Lemma divisor_above r : 1 < r -> (r | n) -> fprod fs < r.
Proof.
  intros Hr Hrn. set (F := fprod fs) in *. pose proof (fprod_pos fs Hfs) as HF.
  assert (modr : forall x, (x mod n) mod r = x mod r) by (intro; symmetry; apply Zmod_div_mod; [lia|lia|exact Hrn]).
  assert (PF : pow_one b r F) by (unfold pow_one; rewrite <- modr, H1; apply Z.mod_1_l; lia).
  destruct (least (pow_one b r) ltac:(intro; apply Z.eq_dec) F HF PF) as [d [Hd [HP Hmin]]].
  pose proof (ord_le b r Hr d ltac:(lia) HP Hmin).
  (* F = k * d, and k = 1: a prime p of F that divides k would make b^(F/p) = 1 modulo r, hence r | gcd (b^(F/p) - 1, n) *)
  destruct (ord_divides b r Hr d ltac:(lia) HP Hmin F ltac:(lia) PF) as [k Hk].
  destruct (Z.eq_dec k 1) as [->|Hk1]; [lia|exfalso].
  destruct (factor_hit fs Hfs k ltac:(nia) ltac:(exists d; lia)) as [[p e] [Hin [k' Hk']]]. cbn in Hk'.
  pose proof Hfs as Hfs'. rewrite Forall_forall in Hfs'. destruct (Hfs' _ Hin) as [[Hp _] _]. cbn in Hp.
  assert (E : F / p = d * k') by (rewrite Hk, Hk'; replace (k' * p * d) with (d * k' * p) by ring; apply Z.div_mul; lia).
  destruct (H2 _ Hin) as [_ _ R]. cbn in R. rewrite E in R.
  assert (Hd1 : (r | b ^ (d * k') mod n - 1)).
  { apply Zmod_divide_minus; [lia|]. rewrite modr. apply (pow_mul_one b r Hr d); [lia | exact HP | nia]. }
  specialize (R r Hd1 Hrn). apply Z.divide_1_r_nonneg in R; lia.
Qed.

Theorem pocklington : n < (fprod fs + 1) ^ 2 -> prime n.
Proof.
  intros Hb. apply prime_alt. split; [exact Hn|]. intros m Hm [c Hc].
  assert (1 < c) by nia.
  pose proof (divisor_above m ltac:(lia) ltac:(exists c; lia)).
  pose proof (divisor_above c ltac:(lia) ltac:(exists m; lia)).
  pose proof (fprod_pos fs Hfs). rewrite Z.pow_2_r in Hb. nia.
Qed.
End Order.

Section Lucas.
Variables n a : Z.
Hypothesis Hn : 1 < n.
Variable fs : list (Z * Z).
Hypothesis Hfs : Forall (fun pe => prime (fst pe) /\ 0 <= snd pe) fs.
Hypothesis Hprod : fprod fs = n - 1.
Hypothesis H1 : a ^ (n - 1) mod n = 1.
Hypothesis H2 : forall pe, In pe fs -> rel_prime (a ^ ((n - 1) / fst pe) mod n - 1) n.

Theorem lucas : prime n.
Proof. rewrite <- Hprod in H1, H2. apply (pocklington n a Hn fs Hfs H1 H2). rewrite Hprod. nia. Qed.
End Lucas.

Section Powm.
Variables (n : Z) (red : Z -> Z).
Hypothesis Hn : 0 < n.
Hypothesis red_ok : forall t, red t = t mod n.

(* [Z.square z]: half of what [z * z] costs coqchk *)
Fixpoint powm (b : Z) (e : positive) : Z :=
  match e with
  | xH => red b
  | xO e => let z := powm b e in red (Z.square z)
  | xI e => let z := powm b e in red (red (Z.square z) * b)
  end.

Lemma powm_ok b e : powm b e = b ^ Zpos e mod n.
Proof.
  induction e as [e IH|e IH|]; cbn [powm]; rewrite ?Z.square_spec, ?red_ok, ?IH.
  - rewrite Pos2Z.inj_xI, Z.pow_add_r, Z.pow_twice_r, Z.pow_1_r by lia.
    now rewrite <- Z.mul_mod, Z.mul_mod_idemp_l by lia.
  - rewrite Pos2Z.inj_xO, Z.pow_twice_r. symmetry. apply Z.mul_mod. lia.
  - now rewrite Z.pow_1_r.
Qed.
End Powm.

(** [t mod n] with the quotient guessed as [((t >> k) * mu) >> l] (Barrett) and the guess checked, so that nothing has to
    be proved about [mu], [k], [l].  With [mu = 2^(k+l) / n], [2^k] well below [n] and [2^(k+l)] well above [t] the guess is
    almost always right.  coqchk has no bytecode machine: there a 510-bit [Z.modulo] costs as much as five multiplications,
    and this costs two. *)
Definition bmod (n mu k l t : Z) : Z :=
  let r := t - Z.shiftr (Z.shiftr t k * mu) l * n in
  if (0 <=? r) && (r <? n) then r else t mod n.

Lemma bmod_ok n mu k l t : 0 < n -> bmod n mu k l t = t mod n.
Proof.
  intros Hn. unfold bmod. set (g := Z.shiftr _ l).
  destruct (Z.leb_spec 0 (t - g * n)), (Z.ltb_spec (t - g * n) n); try reflexivity.
  cbn [andb]. apply (Z.mod_unique t n g); lia.
Qed.

Lemma pow_mod_mul b e c n : 0 < n -> 0 <= e -> 0 <= c -> b ^ (e * c) mod n = (b ^ e mod n) ^ c mod n.
Proof. intros. now rewrite Z.pow_mul_r, <- Zpower_mod. Qed.

(** the test with a single prime [p] for the factored part, by evaluation; for small moduli *)
Lemma pocklington_1 n b p : prime p -> 1 < n -> n < (p + 1) ^ 2 ->
  Zpow_mod b p n = 1 -> Z.gcd (b mod n - 1) n = 1 -> prime n.
Proof.
  intros Hp Hn Hb H1 H2. assert (E : fprod [(p, 1)] = p) by (cbn; lia).
  apply (pocklington n b Hn [(p, 1)]); rewrite ?E.
  - apply Forall_cons; [split; [exact Hp | cbn; lia] | apply Forall_nil].
  - rewrite <- Zpow_mod_correct by lia. exact H1.
  - intros pe [<-|[]]. cbn [fst]. rewrite Z.div_same, Z.pow_1_r by (destruct Hp; lia). now apply Zgcd_1_rel_prime.
  - exact Hb.
Qed.

Definition q_bls : Z := 0x73eda753299d7d483339d80809a1d80553bda402fffe5bfeffffffff00000001.

Lemma prime_110573 : prime 110573.
Proof. apply (prime_trial 400%nat); [lia | vm_compute; reflexivity]. Qed.
Lemma prime_2653753 : prime 2653753.
Proof. apply (pocklington_1 _ 854698 _ prime_110573); [lia | lia | vm_compute; reflexivity ..]. Qed.
Lemma prime_63690073 : prime 63690073.
Proof. apply (pocklington_1 _ 16777216 _ prime_2653753); [lia | lia | vm_compute; reflexivity ..]. Qed.
Lemma prime_254760293 : prime 254760293.
Proof. apply (pocklington_1 _ 16 _ prime_63690073); [lia | lia | vm_compute; reflexivity ..]. Qed.
Lemma prime_906349 : prime 906349.
Proof. apply (prime_trial 1000%nat); [lia | vm_compute; reflexivity]. Qed.

(** the factored part of [q_bls - 1]: its square exceeds [q_bls] *)
Definition q_fs : list (Z * Z) := [(2, 32); (906349, 2); (254760293, 2)].
(** [5 ^ ((q_bls - 1) / fprod q_fs) mod q_bls]; how it was found plays no role *)
Definition q_wit : Z := 0x31aea2f836f51174050e1eabd824ad064f68ec321f2bc1d3e279a1eb2856e040.
(** [q_wit ^ (2^31 * 906349 * 254760293) mod q_bls], and that to the power 254760293: the three powers the test needs
    are small powers of these *)
Definition q_wit_E : Z := 0xd75edce4bcd0ca4b2623aa885c8ca0805d5eebaa6b181167df0e01885459b99.
Definition q_wit_Ec : Z := 0x31136c0095ec63e5334ccd522840937650b4ae6fbcbfb6dff42cfb793a12bfc9.
(** [mu = 2^525 / q_bls] *)
Definition q_red : Z -> Z := bmod q_bls 0x46aa129dbfdbc6ef8716bb96e0fc11da6ca087d697c975ae284e6f404181ac726202 240 285.

Lemma pred_sq_mod n : 1 < n -> (n - 1) ^ 2 mod n = 1.
Proof. intros Hn. replace ((n - 1) ^ 2) with (1 + (n - 2) * n) by ring. rewrite Z_mod_plus_full. apply Z.mod_1_l, Hn. Qed.

Theorem q_bls_prime : prime q_bls.
Proof.
  assert (Hq : 1 < q_bls) by reflexivity.
  assert (Pw : forall b e, b ^ Zpos e mod q_bls = powm q_red b e).
  { intros. symmetry. apply powm_ok; [|intro; apply bmod_ok]; lia. }
  assert (Step : forall e x c, q_wit ^ Zpos e mod q_bls = x -> q_wit ^ Zpos (e * c) mod q_bls = powm q_red x c).
  { intros e x c <-. now rewrite Pos2Z.inj_mul, pow_mod_mul, Pw by lia. }
  (* E = 2^31 * 906349 * 254760293 = fprod q_fs / (2 * 906349 * 254760293) *)
  set (E := 495857704073351749697536%positive).
  assert (Y : q_wit ^ Zpos E mod q_bls = q_wit_E) by (rewrite Pw; vm_compute; reflexivity).
  assert (U : q_wit ^ Zpos (E * 254760293) mod q_bls = q_wit_Ec) by (rewrite (Step _ _ _ Y); vm_compute; reflexivity).
  (* an element of order [fprod q_fs], which is even, has -1 as the power half way *)
  assert (V2 : q_wit ^ (fprod q_fs / 2) mod q_bls = q_bls - 1).
  { change (fprod q_fs / 2) with (Zpos (E * 254760293 * 906349)). rewrite (Step _ _ _ U). vm_compute; reflexivity. }
  apply (pocklington q_bls q_wit Hq q_fs).
  - repeat (apply Forall_cons; [split; cbn [fst snd]; [|lia]|]);
      [exact prime_2 | exact prime_906349 | exact prime_254760293 | apply Forall_nil].
  - change (fprod q_fs) with (fprod q_fs / 2 * 2). rewrite pow_mod_mul, V2 by (cbv; intuition discriminate). now apply pred_sq_mod.
  - intros pe [<-|[<-|[<-|[]]]]; cbn [fst]; apply Zgcd_1_rel_prime.
    + rewrite V2. vm_compute; reflexivity.
    (* [c] is passed to [Step]: left to unification, [rewrite] searches under [Z.gcd], unfolds [mod] there and starts on the power *)
    + change (fprod q_fs / 906349) with (Zpos (E * 254760293 * 2)). rewrite (Step _ _ 2%positive U). vm_compute; reflexivity.
    + change (fprod q_fs / 254760293) with (Zpos (E * (2 * 906349))). rewrite (Step _ _ (2 * 906349)%positive Y). vm_compute; reflexivity.
  - vm_compute; reflexivity.
Qed.

From ZK Require Import Model.Field Model.Zq.
(** The executable scalar field of the model. *)
Definition Fq : Fld := ZqFld q_bls q_bls_prime.
Definition fq (z : Z) : Fq := zq_of_Z q_bls z.
