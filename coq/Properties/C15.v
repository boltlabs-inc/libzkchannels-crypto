(** C15 — Wire round-trips are lossless and decoded values satisfy every type invariant.
    [codec_ok c] = (1) dec (enc v ++ rest) = (v, rest) for every well-formed v; (2) a successful decode of byte
    input returns a well-formed value and the input is exactly its canonical encoding (++ rest); (3) no panic;
    (4) bounded capacity requests.  Every wire type is a composition of combinators that preserve [codec_ok];
    the laws of the point codecs are hypotheses (trusted: bls12_381), the scalar codec's are proved. *)
From ZK Require Import Model.Field Model.Zq Model.QBls Model.Ids Model.Amount Model.Wire Model.Codecs
  Model.Base64 Proofs.WireProofs Proofs.CodecsProofs Proofs.Base64Proofs.
Open Scope Z_scope.

Theorem C15_scalar_codec_ok : codec_ok c_scalar_q.
Proof. apply (ok_int_atom 32 (fun z => if z <? q_bls then Some (fq z) else None) val).
  - intros a _. pose proof (val_range q_bls q_bls_prime a) as R. assert (Q : q_bls < 256 ^ Z.of_nat 32) by reflexivity.
    split; [lia|]. destruct (Z.ltb_spec (val a) q_bls); [|lia]. f_equal. apply (of_Z_val q_bls q_bls_prime).
  - intros z a R. destruct (Z.ltb_spec z q_bls); [|discriminate]. intros [= <-]. split; [exact I|]. apply Z.mod_small. lia. Qed.
Theorem C15_u64_codec_ok : codec_ok c_u64.  Proof. exact c_u64_ok. Qed.
Theorem C15_i64_codec_ok : codec_ok c_i64.  Proof. exact c_i64_ok. Qed.

Theorem C15_pair_preserves : forall A B (ca : codec A) (cb : codec B), codec_ok ca -> codec_ok cb -> codec_ok (c_pair ca cb).
Proof. exact @ok_pair. Qed.
Theorem C15_validation_preserves : forall A (c : codec A) (p : A -> bool), codec_ok c -> codec_ok (c_validated c p).
Proof. exact @ok_validated. Qed.
Theorem C15_tuple_preserves : forall A (n : nat) (c : codec A), codec_ok c -> codec_ok (c_tuple n c).
Proof. exact @ok_tuple. Qed.
Theorem C15_array_preserves : forall A (c : codec A), codec_ok c -> forall n : nat, Z.of_nat n + 1 < 2 ^ 64 -> codec_ok (c_array n c).
Proof. exact @ok_array. Qed.

Section Types.
Variable K : Fld.
Variable close_tag : K.
Variable c_scalar c_g1 c_g2 : codec K.
Variable lock_ok : K -> K -> Z -> bool.
Hypothesis Hs : codec_ok c_scalar.
Hypothesis H1 : codec_ok c_g1.
Hypothesis H2 : codec_ok c_g2.

Theorem C15_balance : codec_ok c_balance.  Proof. eauto 60 with codec. Qed.
Theorem C15_nonce : codec_ok (c_nonce K close_tag c_scalar).  Proof. eauto 60 with codec. Qed.
Theorem C15_signature : codec_ok (c_sig K c_g1).  Proof. eauto 60 with codec. Qed.
Theorem C15_public_key : forall n : nat, Z.of_nat n + 1 < 2 ^ 64 -> codec_ok (c_pk K c_g1 c_g2 n).
Proof. eauto 60 with codec. Qed.
Theorem C15_key_pair : forall n : nat, Z.of_nat n + 1 < 2 ^ 64 -> codec_ok (c_keypair K c_scalar c_g1 c_g2 n).
Proof. eauto 60 with codec. Qed.
Theorem C15_pedersen_parameters : forall cg (n : nat), codec_ok cg -> Z.of_nat n + 1 < 2 ^ 64 -> codec_ok (c_pedersen K cg n).
Proof. eauto 60 with codec. Qed.
Theorem C15_commitment_proof : forall cg (n : nat), codec_ok cg -> Z.of_nat n + 1 < 2 ^ 64 -> codec_ok (c_cp K c_scalar cg n).
Proof. eauto 60 with codec. Qed.
Theorem C15_signature_proof : forall n : nat, Z.of_nat n + 1 < 2 ^ 64 -> codec_ok (c_sp K c_scalar c_g1 c_g2 n).
Proof. eauto 60 with codec. Qed.
Theorem C15_range_parameters : codec_ok (c_range_params K c_g1 c_g2).  Proof. eauto 60 with codec. Qed.
Theorem C15_range_constraint : codec_ok (c_range_constraint K c_scalar c_g1 c_g2).
Proof. eauto 60 with codec. Qed.
Theorem C15_customer_config : codec_ok (c_customer_config K c_g1 c_g2).  Proof. eauto 60 with codec. Qed.
Theorem C15_establish_proof : codec_ok (c_establish_proof K c_scalar c_g1).  Proof. eauto 60 with codec. Qed.
Theorem C15_pay_proof : codec_ok (c_pay_proof K c_scalar c_g1 c_g2).  Proof. eauto 60 with codec. Qed.
Theorem C15_revocation_pair : codec_ok (c_revpair K c_scalar lock_ok).  Proof. eauto 60 with codec. Qed.
Theorem C15_state : codec_ok (c_state K close_tag c_scalar lock_ok).  Proof. eauto 60 with codec. Qed.
Theorem C15_closing_message : codec_ok (c_closing_message K c_scalar c_g1).  Proof. eauto 60 with codec. Qed.
Theorem C15_requested : codec_ok (c_requested K close_tag c_scalar lock_ok).  Proof. eauto 60 with codec. Qed.
Theorem C15_inactive_locked : codec_ok (c_inactive K close_tag c_scalar c_g1 lock_ok).
Proof. eauto 60 with codec. Qed.
Theorem C15_ready : codec_ok (c_ready K close_tag c_scalar c_g1 lock_ok).  Proof. eauto 60 with codec. Qed.
Theorem C15_started : codec_ok (c_started K close_tag c_scalar c_g1 lock_ok).  Proof. eauto 60 with codec. Qed.

(** the invariants, read off the decoder: *)
Theorem C15_decoded_balance_in_range : forall bs v rest, Forall is_byte bs ->
  res_of (dec c_balance bs) = Some (v, rest) -> 0 <= v <= i64_max.
Proof. intros bs v rest Hb H. destruct (ok_canonical _ C15_balance bs v rest Hb H) as [[W1 W2] _]. simpl in W1. apply Z.leb_le in W2. lia. Qed.
Theorem C15_decoded_nonce_not_close : forall bs n rest, (forall a b : K, feqb a b = true <-> a = b) -> Forall is_byte bs ->
  res_of (dec (c_nonce K close_tag c_scalar) bs) = Some (n, rest) -> n <> close_tag.
Proof. intros bs n rest Hf Hb H. destruct (ok_canonical _ C15_nonce bs n rest Hb H) as [[_ W] _]. intros ->.
  apply negb_true_iff in W. now rewrite (proj2 (Hf close_tag close_tag) eq_refl) in W. Qed.
Theorem C15_decoded_signature_well_formed : forall bs s rest, Forall is_byte bs ->
  res_of (dec (c_sig K c_g1) bs) = Some (s, rest) -> fneqb (fst s) f0 = true.
Proof. intros bs s rest Hb H. now destruct (ok_canonical _ C15_signature bs s rest Hb H) as [[_ W] _]. Qed.
End Types.

(** printing and parsing a channel id (base64, standard alphabet, padded): parse inverts print on every 32-byte id,
    printing is injective, the text has 44 characters of the alphabet, a parsed id has 32 bytes, the encoding of any
    other number of bytes is refused with that length, a text starting with a foreign character is refused *)
Theorem C15_channel_id_print_parse : forall cid, Forall is_byte cid -> length cid = 32%nat -> cid_parse (cid_print cid) = CidOk cid.
Proof. intros cid HF HL. unfold cid_parse, cid_print. rewrite b64_roundtrip by exact HF. now rewrite HL. Qed.
Theorem C15_base64_roundtrip_every_length : forall bs, Forall is_byte bs -> b64_decode (b64_encode bs) = Some bs.
Proof. exact b64_roundtrip. Qed.
Theorem C15_channel_id_print_injective : forall a b, Forall is_byte a -> Forall is_byte b -> cid_print a = cid_print b -> a = b.
Proof. exact b64_encode_injective. Qed.
Theorem C15_channel_id_text_shape : forall cid, Forall is_byte cid -> length cid = 32%nat ->
  length (cid_print cid) = 44%nat /\ Forall b64_alphabet (cid_print cid).
Proof. intros cid HF HL. split; [|now apply b64_encode_alphabet].
  apply Nat2Z.inj. rewrite b64_encode_length, HL. reflexivity. Qed.
Theorem C15_channel_id_parse_length : forall text bs, cid_parse text = CidOk bs -> length bs = 32%nat.
Proof. intros text bs. unfold cid_parse. destruct (b64_decode text) as [r|]; [|discriminate].
  destruct (Z.eqb_spec (Z.of_nat (length r)) 32); [|discriminate]. intros [= <-]. lia. Qed.
Theorem C15_channel_id_parse_other_length : forall bs, Forall is_byte bs -> length bs <> 32%nat ->
  cid_parse (b64_encode bs) = CidIncorrectLength (Z.of_nat (length bs)).
Proof. intros bs HF HL. unfold cid_parse. rewrite b64_roundtrip by exact HF.
  destruct (Z.eqb_spec (Z.of_nat (length bs)) 32); [lia | reflexivity]. Qed.
Theorem C15_channel_id_parse_foreign_character : forall c0 c1 c2 c3 rest, b64_val c0 = None ->
  cid_parse (c0 :: c1 :: c2 :: c3 :: rest) = CidDecodeError.
Proof. intros c0 c1 c2 c3 rest H. unfold cid_parse. cbn [b64_decode]. now rewrite H. Qed.

Example C15_channel_id_nonvacuous :
  b64_encode [77; 97; 110] = [84; 87; 70; 117] /\ b64_encode [77; 97] = [84; 87; 69; 61] /\ b64_encode [77] = [84; 81; 61; 61] /\
  b64_decode [84; 87; 70; 61] = None /\ cid_parse (cid_print (repeat 255 32)) = CidOk (repeat 255 32).
Proof. vm_compute. auto. Qed.

Example C15_nonvacuous :
  res_of (dec c_balance (Z_to_le 8 (2 ^ 63 - 1))) = Some (2 ^ 63 - 1, []) /\
  res_of (dec c_balance (Z_to_le 8 (2 ^ 63))) = None /\ res_of (dec c_balance (Z_to_le 8 (2 ^ 64 - 1))) = None /\
  res_of (dec c_scalar_q (Z_to_le 32 q_bls)) = None /\ res_of (dec c_scalar_q (Z_to_le 32 (q_bls - 1))) = Some (fq (q_bls - 1), []).
Proof. (* conjunct by conjunct: evaluated as a whole, the normal form of each conjunct is type-checked again in every [conj] around it *)
  repeat apply conj; vm_compute; reflexivity. Qed.

Print Assumptions C15_scalar_codec_ok.
Print Assumptions C15_u64_codec_ok.
Print Assumptions C15_i64_codec_ok.
Print Assumptions C15_pair_preserves.
Print Assumptions C15_validation_preserves.
Print Assumptions C15_tuple_preserves.
Print Assumptions C15_array_preserves.
Print Assumptions C15_balance.
Print Assumptions C15_nonce.
Print Assumptions C15_signature.
Print Assumptions C15_public_key.
Print Assumptions C15_key_pair.
Print Assumptions C15_pedersen_parameters.
Print Assumptions C15_commitment_proof.
Print Assumptions C15_signature_proof.
Print Assumptions C15_range_parameters.
Print Assumptions C15_range_constraint.
Print Assumptions C15_customer_config.
Print Assumptions C15_establish_proof.
Print Assumptions C15_pay_proof.
Print Assumptions C15_revocation_pair.
Print Assumptions C15_state.
Print Assumptions C15_closing_message.
Print Assumptions C15_requested.
Print Assumptions C15_inactive_locked.
Print Assumptions C15_ready.
Print Assumptions C15_started.
Print Assumptions C15_decoded_balance_in_range.
Print Assumptions C15_decoded_nonce_not_close.
Print Assumptions C15_decoded_signature_well_formed.
Print Assumptions C15_nonvacuous.
Print Assumptions C15_channel_id_print_parse.
Print Assumptions C15_base64_roundtrip_every_length.
Print Assumptions C15_channel_id_print_injective.
Print Assumptions C15_channel_id_text_shape.
Print Assumptions C15_channel_id_parse_length.
Print Assumptions C15_channel_id_parse_other_length.
Print Assumptions C15_channel_id_parse_foreign_character.
Print Assumptions C15_channel_id_nonvacuous.
