(** * The executable scalar field: integers modulo a prime, in canonical form.

    The operations need no hypothesis on [q]; the lemmas from [qpos] on, and with them [ZqFld], take [prime q]. *)
From Coq Require Import Znumtheory Eqdep_dec.
From ZK Require Import Model.Field.
Open Scope Z_scope.

Section Zq.
Variable q : Z.

Record Zq := mkZq { val : Z; canon : (val mod q =? val) = true }.

Lemma canon_mod z : ((z mod q) mod q =? z mod q) = true.
Proof. apply Z.eqb_eq, Zmod_mod. Qed.

Definition zq_of_Z z := mkZq (z mod q) (canon_mod z).
Definition z0 := zq_of_Z 0.
Definition z1 := zq_of_Z 1.
Definition zadd a b := zq_of_Z (val a + val b).
Definition zmul a b := zq_of_Z (val a * val b).
Definition zsub a b := zq_of_Z (val a - val b).
Definition zopp a := zq_of_Z (- val a).
Definition zinv a := match euclid (val a) q with Euclid_intro _ _ u _ d _ _ => zq_of_Z (u * d) end.
Definition zdiv a b := zmul a (zinv b).
Definition zeqb a b := val a =? val b.

Lemma Zq_eq a b : val a = val b -> a = b.
Proof. destruct a as [x p], b as [y r]; simpl; intros ->. f_equal. apply UIP_dec, bool_dec. Qed.

Lemma zeqb_spec a b : zeqb a b = true <-> a = b.
Proof. unfold zeqb. rewrite Z.eqb_eq. split; [apply Zq_eq | now intros ->]. Qed.

Hypothesis qprime : prime q.
Lemma qpos : 0 < q. Proof. destruct qprime; lia. Qed.

Lemma val_range a : 0 <= val a < q.
Proof. destruct a as [x p]; simpl. apply Z.eqb_eq in p. rewrite <- p. apply Z.mod_pos_bound, qpos. Qed.
Lemma of_Z_val a : zq_of_Z (val a) = a.
Proof. apply Zq_eq. apply Z.mod_small, val_range. Qed.

Lemma add_of a b : zadd (zq_of_Z a) (zq_of_Z b) = zq_of_Z (a + b).
Proof. apply Zq_eq; cbn. pose proof qpos. now rewrite <- Z.add_mod by lia. Qed.
Lemma mul_of a b : zmul (zq_of_Z a) (zq_of_Z b) = zq_of_Z (a * b).
Proof. apply Zq_eq; cbn. pose proof qpos. now rewrite <- Z.mul_mod by lia. Qed.
Lemma sub_of a b : zsub (zq_of_Z a) (zq_of_Z b) = zq_of_Z (a - b).
Proof. apply Zq_eq; cbn. pose proof qpos. now rewrite <- Zminus_mod. Qed.
Lemma opp_of a : zopp (zq_of_Z a) = zq_of_Z (- a).
Proof. apply Zq_eq; cbn. pose proof qpos. change (- (a mod q)) with (0 - a mod q). now rewrite Zminus_mod_idemp_r. Qed.

Lemma Zq_ring : ring_theory z0 z1 zadd zmul zsub zopp eq.
Proof. (* every element is [zq_of_Z] of an integer ([of_Z_val]), and [zq_of_Z] commutes with the operations: each law is the law
     of Z; [add_of] stands twice because a sum is the inner operation of some laws and the outer one of others *)
  constructor; intros;
  repeat match goal with a : Zq |- _ => rewrite <- (of_Z_val a); generalize (val a); clear a; intro a end;
  unfold z0, z1; rewrite ?add_of, ?mul_of, ?sub_of, ?opp_of, ?add_of;
  f_equal; try ring. Qed.

Lemma zinv_l a : a <> z0 -> zmul (zinv a) a = z1.
Proof. intros Ha. unfold zinv. destruct (euclid (val a) q) as [u v d Huv Hg].
  assert (Hr : rel_prime (val a) q).
  { apply rel_prime_sym, prime_rel_prime; [exact qprime|]. intros Hd.
    apply Ha, Zq_eq. cbn. pose proof (val_range a).
    apply Z.mod_divide in Hd; [|lia]. rewrite Z.mod_small in Hd; lia. }
  assert (d = 1 \/ d = -1) as Hd.
  { destruct (Zis_gcd_unique _ _ _ _ Hg Hr); lia. }
  apply Zq_eq. cbn. pose proof qpos. rewrite Z.mul_mod_idemp_l by lia.
  replace (u * d * val a) with (1 + (- v * d) * q) by (destruct Hd; nia).
  rewrite Z.mod_add by lia. reflexivity.
Qed.

Lemma z1_neq_z0 : z1 <> z0.
Proof. intros H. apply (f_equal val) in H. cbn in H. destruct qprime as [H1 _].
  rewrite Z.mod_1_l in H by lia. discriminate. Qed.

Lemma Zq_field : field_theory z0 z1 zadd zmul zsub zopp zdiv zinv eq.
Proof. constructor; [exact Zq_ring | exact z1_neq_z0 | reflexivity | exact zinv_l]. Qed.

Definition ZqFld : Fld :=
  mkFld Zq z0 z1 zadd zmul zsub zopp zdiv zinv zeqb Zq_field zeqb_spec.

End Zq.
Arguments val {_}.
