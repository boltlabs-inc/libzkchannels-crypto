(** C08 — Blind signing yields a signature on exactly the message proven in the request. *)
From ZK Require Import Model.Field Model.QBls Model.Pedersen Model.PS Model.Schnorr Proofs.FieldFacts Proofs.PSProofs
  Proofs.SchnorrProofs.
Local Open Scope fld_scope.

(** a blind-signable value exists only for a verifying proof, and it is the proof's own commitment *)
Theorem C08_vbm_only_from_verifying_proof : forall (K : Fld) (pk : pkey K) (p : cproof K) c v,
  req_verify pk p c = Some v <->
  commit (pk_g1 pk) (pk_y1s pk) (cp_rs p) (cp_rbf p) = cp_T p + cp_C p * c /\ v = cp_C p.
Proof. exact req_verify_iff. Qed.

Theorem C08_rejected_request_yields_nothing : forall (K : Fld) (pk : pkey K) (p : cproof K) c,
  req_verify pk p c = None <-> cp_verify (pk_g1 pk) (pk_y1s pk) p c = false.
Proof. intros K pk p c. unfold req_verify. destruct (cp_verify _ _ p c); split; congruence. Qed.

(** end to end: honest request -> blind-signable value -> blind signature -> unblinded signature on ms *)
Theorem C08_request_sign_unblind : forall (K : Fld) (sk : skey K) (pk : pkey K) ms bf kbf ks c u,
  key_ok K sk pk -> pk_g1 pk <> f0 -> u <> f0 -> length ms = length ks ->
  exists v, req_verify pk (req_prove pk ms bf kbf ks c) c = Some v /\
            verify pk ms (unblind bf (blind_sign sk pk u v)) = true.
Proof. exact request_sign_unblind. Qed.

(** ... and on no message differing in a single coordinate (multi-coordinate differences are accepted
    iff <Y~, m - m'> = 0, which requires a discrete logarithm of the key: named, not proved) *)
Theorem C08_signature_on_no_other_message : forall (K : Fld) (pk : pkey K) ms s j v,
  verify pk ms s = true -> (j < length ms)%nat -> (j < length (pk_y2s pk))%nat ->
  nth j (pk_y2s pk) f0 <> f0 -> v <> nth j ms f0 -> verify pk (upd j v ms) s = false.
Proof. exact single_coordinate_rejects. Qed.

Theorem C08_other_message_iff : forall (K : Fld) (pk : pkey K) ms ms' s, verify pk ms s = true ->
  (verify pk ms' s = true <-> ip (pk_y2s pk) ms = ip (pk_y2s pk) ms').
Proof. exact verify_other_message. Qed.

Example C08_nonvacuous :
  let kp := keygen (fq 11) (fq 17) [fq 19; fq 23] (fq 13) in
  let ms := [fq 5; fq (-1)] in
  let p := req_prove (snd kp) ms (fq 7) (fq 9) [fq 21; fq 22] (fq 99) in
  req_verify (snd kp) p (fq 99) = Some (blind (snd kp) ms (fq 7)) /\
  req_verify (snd kp) p (fq 98) = None /\
  verify (snd kp) ms (unblind (fq 7) (blind_sign (fst kp) (snd kp) (fq 3) (cp_C p))) = true /\
  verify (snd kp) ms (unblind (fq 7) (blind_sign (fst kp) (snd kp) (fq 3) (cp_T p))) = false.
Proof. vm_compute. auto. Qed.

(** several coordinates at once: moving value d from coordinate j to coordinate i keeps a signature valid exactly when
    (y~_i - y~_j) * d = 0; with pairwise different exponents (independent draws: C19) every such move is rejected. The general
    multi-coordinate statement - acceptance iff <y~, m - m'> = 0 - is C07_verify_other_message; solving it without the secret
    exponents is the discrete-log residue named in the manifest. *)
Theorem C08_moved_value_iff : forall (K : Fld) (pk : pkey K) ms s i j d, verify pk ms s = true ->
  (i < length ms)%nat -> (j < length ms)%nat -> (i < length (pk_y2s pk))%nat -> (j < length (pk_y2s pk))%nat -> i <> j ->
  (verify pk (upd i (nth i ms f0 + d) (upd j (nth j ms f0 - d) ms)) s = true <->
   (nth i (pk_y2s pk) f0 - nth j (pk_y2s pk) f0) * d = f0).
Proof. exact moved_value_iff. Qed.

Theorem C08_moved_value_rejected : forall (K : Fld) (pk : pkey K) ms s i j d, verify pk ms s = true ->
  (i < length ms)%nat -> (j < length ms)%nat -> (i < length (pk_y2s pk))%nat -> (j < length (pk_y2s pk))%nat -> i <> j ->
  nth i (pk_y2s pk) f0 <> nth j (pk_y2s pk) f0 -> d <> f0 ->
  verify pk (upd i (nth i ms f0 + d) (upd j (nth j ms f0 - d) ms)) s = false.
Proof. intros K pk ms s i j d Hv Hi Hj Hyi Hyj Hij Hne Hd. apply not_true_is_false.
  rewrite (moved_value_iff K), (fmul_eq0_iff K), (fsub_eq0 K) by assumption. tauto. Qed.

Print Assumptions C08_vbm_only_from_verifying_proof.
Print Assumptions C08_rejected_request_yields_nothing.
Print Assumptions C08_request_sign_unblind.
Print Assumptions C08_signature_on_no_other_message.
Print Assumptions C08_other_message_iff.
Print Assumptions C08_nonvacuous.
Print Assumptions C08_moved_value_iff.
Print Assumptions C08_moved_value_rejected.
