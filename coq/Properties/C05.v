(** C05 — A new pay token is issued only against a valid revocation of the previous state. *)
From ZK Require Import Model.Field Model.Pedersen Model.PS Model.Merchant Model.Ids Proofs.FieldFacts
  Proofs.PedersenProofs Proofs.IdsProofs Proofs.MerchantProofs.
Local Open Scope fld_scope.

Theorem C05_complete_payment_iff : forall (K : Fld) (sk : skey K) (pk : pkey K) hr gr (u : unrevoked K) urand lock bf,
  (exists tok, complete_payment sk pk hr gr u urand lock bf = inl tok) <->
  verify_opening hr [gr] (u_com u) bf [lock] = true.
Proof. exact complete_payment_iff. Qed.

Theorem C05_issued_token_is_blind_signature_on_pending_state :
  forall (K : Fld) (sk : skey K) (pk : pkey K) hr gr (u : unrevoked K) urand lock bf tok,
  complete_payment sk pk hr gr u urand lock bf = inl tok -> tok = blind_sign sk pk urand (u_state u).
Proof. intros K sk pk hr gr u urand lock bf tok. unfold complete_payment.
  destruct (revocation_opens hr gr u lock bf); [intros [= <-]; reflexivity | discriminate]. Qed.

Theorem C05_refusal_returns_pending : forall (K : Fld) (sk : skey K) (pk : pkey K) hr gr (u u' : unrevoked K) urand lock bf,
  complete_payment sk pk hr gr u urand lock bf = inr u' ->
  u' = u /\ verify_opening hr [gr] (u_com u) bf [lock] = false.
Proof. exact refusal_returns_pending. Qed.

Theorem C05_retry_after_refusal : forall (K : Fld) (sk : skey K) (pk : pkey K) hr gr (u u' : unrevoked K) ur1 ur2 lock bf lock' bf',
  complete_payment sk pk hr gr u ur1 lock' bf' = inr u' ->
  verify_opening hr [gr] (u_com u) bf [lock] = true ->
  complete_payment sk pk hr gr u' ur2 lock bf = inl (blind_sign sk pk ur2 (u_state u)).
Proof. intros K sk pk hr gr u u' ur1 ur2 lock bf lock' bf' R V. apply refusal_returns_pending in R. destruct R as [-> _].
  unfold complete_payment, revocation_opens. now rewrite V. Qed.

(** with the commitment coming from an accepted pay proof (it opens to the old lock), exactly the old lock with
    the right factor is accepted (for non-identity parameters) *)
Theorem C05_only_the_committed_lock_opens : forall (K : Fld) (hr gr lock bf lock' bf' : K), hr <> f0 -> gr <> f0 ->
  verify_opening hr [gr] (commit hr [gr] [lock] bf) bf' [lock'] = true ->
  (bf' = bf -> lock' = lock) /\ (lock' = lock -> bf' = bf).
Proof. intros K hr gr lock bf lock' bf' Hh Hg V. apply (verify_opening_iff K) in V.
  split; intros ->.
  - apply (fadd_cancel_l K) in V. now apply (affine_inj K gr f0).
  - now apply (affine_inj K hr (gr * lock + f0)). Qed.

(** every revocation pair that can exist - generated or decoded - has lock = canonical scalar of H(secret bytes ++ [index]) *)
Theorem C05_pair_wf_new : forall (K : Fld) q (H : list Z -> list Z) (enc : K -> list Z) secret l s i,
  revpair_new q H enc secret = Some (l, s, i) ->
  s = secret /\ lock_of q H enc secret i = Some l /\ (0 <= i < 256)%Z.
Proof. intros K q H enc secret l s i. change (0 <= i < 256)%Z with (0 <= i < 0 + Z.of_nat 256)%Z. apply revpair_search_wf. Qed.

Theorem C05_pair_wf_decode : forall (K : Fld) q (H : list Z -> list Z) (enc : K -> list Z) lock secret index l s i,
  revpair_decode q H enc lock secret index = Some (l, s, i) ->
  l = lock /\ s = secret /\ i = index /\ lock_of q H enc secret index = Some lock.
Proof. intros K q H enc lock secret index l s i. unfold revpair_decode.
  destruct (lock_of q H enc secret index) as [l0|] eqn:E; [|discriminate].
  destruct (feqb l0 lock) eqn:E2; [|discriminate]. apply (feqb_ok K) in E2. subst l0.
  intros [= <- <- <-]. auto. Qed.

Theorem C05_decode_rejects_other_lock : forall (K : Fld) q (H : list Z -> list Z) (enc : K -> list Z) lock lock' secret index,
  lock_of q H enc secret index = Some lock -> lock' <> lock -> revpair_decode q H enc lock' secret index = None.
Proof. intros K q H enc lock lock' secret index E Hne. unfold revpair_decode. rewrite E.
  destruct (feqbP K lock lock'); [congruence|reflexivity]. Qed.

Theorem C05_decode_rejects_noncanonical_digest : forall (K : Fld) q (H : list Z -> list Z) (enc : K -> list Z) lock secret index,
  lock_of q H enc secret index = None -> revpair_decode q H enc lock secret index = None.
Proof. intros K q H enc lock secret index E. unfold revpair_decode. now rewrite E. Qed.

Theorem C05_lock_is_canonical_hash : forall (K : Fld) q (H : list Z -> list Z) (enc : K -> list Z) secret index l,
  lock_of q H enc secret index = Some l ->
  (le_to_Z (H (enc secret ++ [index])) < q)%Z /\ l = of_Z (le_to_Z (H (enc secret ++ [index]))).
Proof. intros K q H enc secret index l. unfold lock_of, bytes_to_scalar_canonical.
  destruct (Z.ltb_spec (le_to_Z (H (enc secret ++ [index]))) q); [intros [= <-]; auto | discriminate]. Qed.

Print Assumptions C05_complete_payment_iff.
Print Assumptions C05_issued_token_is_blind_signature_on_pending_state.
Print Assumptions C05_refusal_returns_pending.
Print Assumptions C05_retry_after_refusal.
Print Assumptions C05_only_the_committed_lock_opens.
Print Assumptions C05_pair_wf_new.
Print Assumptions C05_pair_wf_decode.
Print Assumptions C05_decode_rejects_other_lock.
Print Assumptions C05_decode_rejects_noncanonical_digest.
Print Assumptions C05_lock_is_canonical_hash.
