(** C10 — Honest proofs and the documented constraint patterns always verify. *)
From ZK Require Import Model.Field Model.QBls Model.PS Model.Schnorr Model.Range Proofs.SchnorrProofs Proofs.RangeProofs.
Local Open Scope fld_scope.

Theorem C10_commitment_proof_complete : forall (K : Fld) (h : K) gs ms bf kbf ks c,
  length ms = length ks -> cp_verify h gs (cp_prove h gs ms bf kbf ks c) c = true.
Proof. exact cp_complete. Qed.

Theorem C10_sigreq_proof_complete : forall (K : Fld) (pk : pkey K) ms bf kbf ks c,
  length ms = length ks -> req_verify pk (req_prove pk ms bf kbf ks c) c = Some (blind pk ms bf).
Proof. exact req_complete. Qed.

(** a signature proof on a valid signature verifies exactly when the randomiser is non-zero *)
Theorem C10_signature_proof_complete : forall (K : Fld) (pk : pkey K) ms s bf kbf ks r c,
  length ms = length ks -> verify pk ms s = true ->
  sig_verify pk (sig_prove pk ms s bf kbf ks r c) c = fneqb r f0.
Proof. exact sig_complete. Qed.

Theorem C10_range_constraint_complete : forall (K : Fld) (rp : rparams K) v ds c,
  validate rp = true -> length (rp_sigs rp) = 128%nat -> (0 <= v < 2 ^ 63)%Z ->
  length ds = 9%nat -> Forall (fun rd => rd_r rd <> f0) ds ->
  exists ps, range_prove rp v ds c = Some ps /\
             range_verify rp ps c (c * of_Z v + range_commitment_scalar ds) = true.
Proof. exact range_complete. Qed.

(** the challenge input of a finished proof is that of its builder *)
Theorem C10_builder_proof_transcript_eq : forall (K : Fld) (h : K) gs ms bf kbf ks c,
  cp_transcript (cp_prove h gs ms bf kbf ks c) = cp_builder_transcript (cp_commit_phase h gs ms bf kbf ks).
Proof. exact builder_proof_transcript_eq. Qed.

(** response scalars: r_j = c * m_j + k_j.  Every documented pattern is an instance:
    partial opening (m_j public), equality (same k, same m), secret sum (k3 = k1 + k2),
    public addition (k2 = k1), public product (k2 = k1 * a), range link (k_j = commitment scalar). *)
Theorem C10_response_scalar_spec : forall (K : Fld) (h : K) gs ms bf kbf ks c j,
  length ms = length ks -> (j < length ms)%nat ->
  nth j (cp_rs (cp_prove h gs ms bf kbf ks c)) f0 = c * nth j ms f0 + nth j ks f0.
Proof. exact response_scalar_spec. Qed.

Theorem C10_range_link : forall (K : Fld) (h : K) gs ms bf kbf ks c j v ds,
  length ms = length ks -> (j < length ms)%nat ->
  nth j ms f0 = of_Z v -> nth j ks f0 = range_commitment_scalar ds ->
  nth j (cp_rs (cp_prove h gs ms bf kbf ks c)) f0 = c * of_Z v + range_commitment_scalar ds.
Proof. exact range_link. Qed.

Example C10_nonvacuous :
  let kp := keygen (fq 11) (fq 17) [fq 19; fq 23] (fq 13) in
  let ms := [fq 0; fq (-1)] in
  req_verify (snd kp) (req_prove (snd kp) ms (fq 7) (fq 9) [fq 21; fq 22] (fq 99)) (fq 99) = Some (blind (snd kp) ms (fq 7)) /\
  sig_verify (snd kp) (sig_prove (snd kp) ms (sign (fst kp) (fq 31) ms) (fq 7) (fq 9) [fq 21; fq 22] (fq 5) (fq 99)) (fq 99) = true /\
  sig_verify (snd kp) (sig_prove (snd kp) ms (sign (fst kp) (fq 31) ms) (fq 7) (fq 9) [fq 21; fq 22] (fq 0) (fq 99)) (fq 99) = false.
Proof. (* conjunct by conjunct: evaluated as a whole, each normal form is type-checked again in every [conj] around it *)
  intros kp ms. repeat apply conj; vm_compute; reflexivity. Qed.

Print Assumptions C10_commitment_proof_complete.
Print Assumptions C10_sigreq_proof_complete.
Print Assumptions C10_signature_proof_complete.
Print Assumptions C10_range_constraint_complete.
Print Assumptions C10_builder_proof_transcript_eq.
Print Assumptions C10_response_scalar_spec.
Print Assumptions C10_range_link.
Print Assumptions C10_nonvacuous.
