(** C11 — Proof verifiers accept exactly the Schnorr and pairing relations. *)
From ZK Require Import Model.Field Model.QBls Model.Pedersen Model.PS Model.Schnorr Proofs.SchnorrProofs.
Local Open Scope fld_scope.

Theorem C11_commitment_verify_iff : forall (K : Fld) (h : K) gs (p : cproof K) c,
  cp_verify h gs p c = true <-> commit h gs (cp_rs p) (cp_rbf p) = cp_T p + cp_C p * c.
Proof. exact cp_verify_iff. Qed.

Theorem C11_sigreq_verify_iff : forall (K : Fld) (pk : pkey K) (p : cproof K) c v,
  req_verify pk p c = Some v <->
  commit (pk_g1 pk) (pk_y1s pk) (cp_rs p) (cp_rbf p) = cp_T p + cp_C p * c /\ v = cp_C p.
Proof. exact req_verify_iff. Qed.

Theorem C11_signature_verify_iff : forall (K : Fld) (pk : pkey K) (p : sproof K) c,
  sig_verify pk p c = true <->
  fst (sp_sig p) <> f0 /\
  commit (pk_g2 pk) (pk_y2s pk) (cp_rs (sp_cp p)) (cp_rbf (sp_cp p)) = cp_T (sp_cp p) + cp_C (sp_cp p) * c /\
  fst (sp_sig p) * (pk_x2 pk + cp_C (sp_cp p)) = snd (sp_sig p) * pk_g2 pk.
Proof. exact sig_verify_iff. Qed.

(** single-field perturbations of an accepted proof, each with its exact side condition *)
Theorem C11_change_commitment_rejects : forall (K : Fld) (h : K) gs p c C',
  cp_verify h gs p c = true -> C' <> cp_C p -> c <> f0 ->
  cp_verify h gs (mkCP C' (cp_T p) (cp_rbf p) (cp_rs p)) c = false.
Proof. exact cp_change_C. Qed.

Theorem C11_change_scalar_commitment_rejects : forall (K : Fld) (h : K) gs p c T',
  cp_verify h gs p c = true -> T' <> cp_T p ->
  cp_verify h gs (mkCP (cp_C p) T' (cp_rbf p) (cp_rs p)) c = false.
Proof. exact cp_change_T. Qed.

Theorem C11_change_bf_response_rejects : forall (K : Fld) (h : K) gs p c r',
  cp_verify h gs p c = true -> r' <> cp_rbf p -> h <> f0 ->
  cp_verify h gs (mkCP (cp_C p) (cp_T p) r' (cp_rs p)) c = false.
Proof. exact cp_change_rbf. Qed.

Theorem C11_change_response_rejects : forall (K : Fld) (h : K) gs p c j v,
  cp_verify h gs p c = true -> (j < length (cp_rs p))%nat -> (j < length gs)%nat ->
  nth j gs f0 <> f0 -> v <> nth j (cp_rs p) f0 ->
  cp_verify h gs (mkCP (cp_C p) (cp_T p) (cp_rbf p) (upd j v (cp_rs p))) c = false.
Proof. exact cp_change_r. Qed.

Theorem C11_change_challenge_rejects : forall (K : Fld) (h : K) gs p c c',
  cp_verify h gs p c = true -> c' <> c -> cp_C p <> f0 -> cp_verify h gs p c' = false.
Proof. exact cp_change_challenge. Qed.

Theorem C11_change_generator_rejects : forall (K : Fld) (h : K) gs p c j g',
  cp_verify h gs p c = true -> (j < length (cp_rs p))%nat -> (j < length gs)%nat ->
  nth j (cp_rs p) f0 <> f0 -> g' <> nth j gs f0 -> cp_verify h (upd j g' gs) p c = false.
Proof. exact cp_change_generator. Qed.

Theorem C11_simulated_other_challenge : forall (K : Fld) (h : K) gs C rbf rs c c',
  cp_verify h gs (simulate K h gs C rbf rs c) c' = true <-> C * (c' - c) = f0.
Proof. exact simulated_other_challenge. Qed.

Theorem C11_identity_signature_rejected : forall (K : Fld) (pk : pkey K) s2 cp c,
  sig_verify pk (mkSP (f0, s2) cp) c = false.
Proof. exact identity_signature_rejected. Qed.

(** whoever answers two challenges for one first message knows an opening (special soundness) *)
Theorem C11_special_soundness : forall (K : Fld) (h : K) gs C T rbf rs rbf' rs' c c',
  c - c' <> f0 -> length rs = length gs -> length rs' = length gs ->
  cp_verify h gs (mkCP C T rbf rs) c = true -> cp_verify h gs (mkCP C T rbf' rs') c' = true ->
  C = commit h gs (map2 (ext K (c - c')) rs rs') (ext K (c - c') rbf rbf').
Proof. intros K h gs C T rbf rs rbf' rs' c c' Hc Hl Hl'.
  apply (cp_extract K h gs (mkCP C T rbf rs) (mkCP C T rbf' rs')); simpl; congruence. Qed.

Theorem C11_signature_special_soundness : forall (K : Fld) (pk : pkey K) (s : sigt K) C T rbf rs rbf' rs' c c',
  c - c' <> f0 -> length rs = length (pk_y2s pk) -> length rs' = length (pk_y2s pk) ->
  sig_verify pk (mkSP s (mkCP C T rbf rs)) c = true ->
  sig_verify pk (mkSP s (mkCP C T rbf' rs')) c' = true ->
  C = commit (pk_g2 pk) (pk_y2s pk) (map2 (ext K (c - c')) rs rs') (ext K (c - c') rbf rbf') /\
  verify pk (map2 (ext K (c - c')) rs rs') (unblind (ext K (c - c') rbf rbf') s) = true.
Proof. intros K pk s C T rbf rs rbf' rs' c c' Hc Hl Hl'.
  apply (sig_extract K pk (mkSP s (mkCP C T rbf rs)) (mkSP s (mkCP C T rbf' rs'))); simpl; congruence. Qed.

Example C11_nonvacuous :
  let p := cp_prove (fq 11) [fq 13; fq 17] [fq 5; fq 0] (fq 7) (fq 9) [fq 21; fq 22] (fq 1000) in
  cp_verify (fq 11) [fq 13; fq 17] p (fq 1000) = true /\
  cp_verify (fq 11) [fq 13; fq 17] p (fq 1001) = false /\
  cp_verify (fq 11) [fq 13; fq 17] (mkCP (cp_C p) (cp_T p) (cp_rbf p) (upd 1 (fq 3) (cp_rs p))) (fq 1000) = false.
Proof. vm_compute. auto. Qed.

Print Assumptions C11_commitment_verify_iff.
Print Assumptions C11_sigreq_verify_iff.
Print Assumptions C11_signature_verify_iff.
Print Assumptions C11_change_commitment_rejects.
Print Assumptions C11_change_scalar_commitment_rejects.
Print Assumptions C11_change_bf_response_rejects.
Print Assumptions C11_change_response_rejects.
Print Assumptions C11_change_challenge_rejects.
Print Assumptions C11_change_generator_rejects.
Print Assumptions C11_simulated_other_challenge.
Print Assumptions C11_identity_signature_rejected.
Print Assumptions C11_special_soundness.
Print Assumptions C11_signature_special_soundness.
Print Assumptions C11_nonvacuous.
