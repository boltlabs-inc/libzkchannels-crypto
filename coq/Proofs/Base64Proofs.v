From Coq Require Import ZArith List Bool Lia.
From ZK Require Import Model.Wire Model.Base64.
Import ListNotations.
Open Scope Z_scope.

Lemma val_char s : 0 <= s < 64 -> b64_val (b64_char s) = Some s /\ b64_char s <> pad.
Proof. intros H. assert (E : forallb (fun s => match b64_val (b64_char s) with Some v => (v =? s) && negb (b64_char s =? pad) | None => false end)
                              (map Z.of_nat (seq 0 64)) = true) by (vm_compute; reflexivity).
  rewrite forallb_forall in E. specialize (E s).
  assert (I : In s (map Z.of_nat (seq 0 64))).
  { apply in_map_iff. exists (Z.to_nat s). split; [lia|]. apply in_seq. lia. }
  specialize (E I). destruct (b64_val (b64_char s)) as [v|]; [|discriminate].
  apply andb_true_iff in E. destruct E as [E1 E2]. apply Z.eqb_eq in E1. subst v. split; [reflexivity|].
  apply negb_true_iff, Z.eqb_neq in E2. exact E2. Qed.

Lemma list_ind3 {A} (P : list A -> Prop) :
  P [] -> (forall a, P [a]) -> (forall a b, P [a; b]) -> (forall a b c l, P l -> P (a :: b :: c :: l)) -> forall l, P l.
Proof. intros H0 H1 H2 H3. fix IH 1. intros [|a [|b [|c l]]]; [exact H0 | apply H1 | apply H2 | apply H3, IH]. Qed.

Lemma bytes_ind3 (P : list Z -> Prop) :
  P [] -> (forall a, is_byte a -> P [a]) -> (forall a b, is_byte a -> is_byte b -> P [a; b]) ->
  (forall a b c l, is_byte a -> is_byte b -> is_byte c -> Forall is_byte l -> P l -> P (a :: b :: c :: l)) ->
  forall l, Forall is_byte l -> P l.
Proof. intros H0 H1 H2 H3. induction l as [|a|a b|a b c l IH] using list_ind3; intros HF;
  repeat (apply Forall_cons_iff in HF; destruct HF as [? HF]); auto. Qed.

(** all arithmetic on sextets: bytes are unfolded, divisions by literals become linear constraints *)
Ltac sextet := unfold is_byte in *; Z.div_mod_to_equations; lia.

(** the decoder on one group of characters, in terms of the four sextets *)
Section Group.
Variables s0 s1 s2 s3 : Z.
Hypotheses (R0 : 0 <= s0 < 64) (R1 : 0 <= s1 < 64) (R2 : 0 <= s2 < 64) (R3 : 0 <= s3 < 64).

Lemma decode_group rest : b64_decode (b64_char s0 :: b64_char s1 :: b64_char s2 :: b64_char s3 :: rest) =
  option_map (fun r => s0 * 4 + s1 / 16 :: s1 mod 16 * 16 + s2 / 4 :: s2 mod 4 * 64 + s3 :: r) (b64_decode rest).
Proof. cbn [b64_decode]. destruct (val_char s0 R0) as [-> _], (val_char s1 R1) as [-> _], (val_char s2 R2) as [-> N2], (val_char s3 R3) as [-> N3].
  apply Z.eqb_neq in N2, N3. rewrite N2, N3. now destruct (b64_decode rest). Qed.

Lemma decode_last2 : s2 mod 4 = 0 -> b64_decode [b64_char s0; b64_char s1; b64_char s2; pad] = Some [s0 * 4 + s1 / 16; s1 mod 16 * 16 + s2 / 4].
Proof. intros Z2. cbn [b64_decode]. destruct (val_char s0 R0) as [-> _], (val_char s1 R1) as [-> _], (val_char s2 R2) as [-> N2].
  apply Z.eqb_neq in N2. now rewrite N2, Z2. Qed.

Lemma decode_last1 : s1 mod 16 = 0 -> b64_decode [b64_char s0; b64_char s1; pad; pad] = Some [s0 * 4 + s1 / 16].
Proof. intros Z1. cbn [b64_decode]. destruct (val_char s0 R0) as [-> _], (val_char s1 R1) as [-> _]. now rewrite Z1. Qed.
End Group.

Theorem b64_roundtrip bs : Forall is_byte bs -> b64_decode (b64_encode bs) = Some bs.
Proof. revert bs. apply bytes_ind3; [|intros a Ha|intros a b Ha Hb|intros a b c l Ha Hb Hc _ IH]; cbn [b64_encode].
  - reflexivity.
  - rewrite decode_last1 by sextet. repeat f_equal; sextet.
  - rewrite decode_last2 by sextet. repeat f_equal; sextet.
  - rewrite decode_group, IH by sextet. cbn [option_map]. repeat f_equal; sextet. Qed.

Theorem b64_encode_injective a b : Forall is_byte a -> Forall is_byte b -> b64_encode a = b64_encode b -> a = b.
Proof. intros Ha Hb E. apply (f_equal b64_decode) in E. rewrite !b64_roundtrip in E by assumption. now injection E. Qed.

(** every character of an encoding is in the alphabet or the padding character *)
Definition b64_alphabet (c : Z) : Prop := (exists s, 0 <= s < 64 /\ c = b64_char s) \/ c = pad.

Lemma alphabet_char s : 0 <= s < 64 -> b64_alphabet (b64_char s).  Proof. left. eauto. Qed.
Lemma alphabet_pad : b64_alphabet pad.  Proof. now right. Qed.

Theorem b64_encode_alphabet bs : Forall is_byte bs -> Forall b64_alphabet (b64_encode bs).
Proof. revert bs. apply bytes_ind3; [|intros a Ha|intros a b Ha Hb|intros a b c l Ha Hb Hc _ IH]; cbn [b64_encode];
  repeat (apply Forall_cons; [apply alphabet_pad || (apply alphabet_char; sextet)|]); auto. Qed.

Lemma b64_encode_length bs : Z.of_nat (length (b64_encode bs)) = 4 * ((Z.of_nat (length bs) + 2) / 3).
Proof. induction bs as [|a|a b|a b c l IH] using list_ind3; try reflexivity.
  cbn [b64_encode length]. rewrite !Nat2Z.inj_succ, IH. Z.div_mod_to_equations; lia. Qed.
