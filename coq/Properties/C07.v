(** C07 — Signature verification accepts exactly the Pointcheval-Sanders relation. *)
From ZK Require Import Model.Field Model.QBls Model.PS Proofs.FieldFacts Proofs.PSProofs.
Local Open Scope fld_scope.

Theorem C07_verify_iff : forall (K : Fld) (pk : pkey K) ms (s : sigt K),
  verify pk ms s = true <->
  fst s <> f0 /\ fst s * (pk_x2 pk + ip (pk_y2s pk) ms) = snd s * pk_g2 pk.
Proof. exact verify_iff. Qed.

Theorem C07_sign_verifies : forall (K : Fld) (sk : skey K) (pk : pkey K) h ms,
  key_ok K sk pk -> h <> f0 -> verify pk ms (sign sk h ms) = true.
Proof. exact sign_verifies. Qed.

Theorem C07_keygen_ok : forall (K : Fld) (g1 x : K) ys g2, g2 <> f0 ->
  key_ok K (fst (keygen g1 x ys g2)) (snd (keygen g1 x ys g2)).
Proof. exact keygen_ok. Qed.

(** re-randomising with r keeps validity exactly when r <> 0; r = 0 gives the all-identity signature *)
Theorem C07_randomize_verify : forall (K : Fld) (pk : pkey K) ms r s,
  verify pk ms (randomize r s) = fneqb r f0 && verify pk ms s.
Proof. exact randomize_verify. Qed.

Theorem C07_all_identity_rejects : forall (K : Fld) (pk : pkey K) ms s2, verify pk ms (f0, s2) = false.
Proof. exact all_identity_rejects. Qed.

Theorem C07_unblind_blind : forall (K : Fld) r bf (s : sigt K),
  unblind bf (blind_and_randomize r bf s) = randomize r s.
Proof. exact unblind_blind. Qed.

Theorem C07_blind_sign_unblind : forall (K : Fld) (sk : skey K) (pk : pkey K) u bf ms,
  key_ok K sk pk -> pk_g1 pk <> f0 -> u <> f0 ->
  verify pk ms (unblind bf (blind_sign sk pk u (blind pk ms bf))) = true.
Proof. exact blind_sign_unblind. Qed.

Theorem C07_verify_other_message : forall (K : Fld) (pk : pkey K) ms ms' s, verify pk ms s = true ->
  (verify pk ms' s = true <-> ip (pk_y2s pk) ms = ip (pk_y2s pk) ms').
Proof. exact verify_other_message. Qed.

Theorem C07_single_coordinate_rejects : forall (K : Fld) (pk : pkey K) ms s j v, verify pk ms s = true ->
  (j < length ms)%nat -> (j < length (pk_y2s pk))%nat -> nth j (pk_y2s pk) f0 <> f0 -> v <> nth j ms f0 ->
  verify pk (upd j v ms) s = false.
Proof. exact single_coordinate_rejects. Qed.

Theorem C07_wrong_bf_rejects : forall (K : Fld) (pk : pkey K) ms s bf bf', pk_g2 pk <> f0 -> bf' <> bf ->
  verify pk ms (unblind bf s) = true -> verify pk ms (unblind bf' s) = false.
Proof. exact wrong_bf_rejects. Qed.

Theorem C07_x2_change_rejects : forall (K : Fld) (pk : pkey K) ms s x2', x2' <> pk_x2 pk -> verify pk ms s = true ->
  verify (mkPk (pk_g1 pk) (pk_y1s pk) (pk_g2 pk) x2' (pk_y2s pk)) ms s = false.
Proof. exact x2_change_rejects. Qed.

Theorem C07_g2_change_rejects : forall (K : Fld) (pk : pkey K) ms s g2', g2' <> pk_g2 pk -> snd s <> f0 ->
  verify pk ms s = true ->
  verify (mkPk (pk_g1 pk) (pk_y1s pk) g2' (pk_x2 pk) (pk_y2s pk)) ms s = false.
Proof. exact g2_change_rejects. Qed.

Theorem C07_y2_change_rejects : forall (K : Fld) (pk : pkey K) ms s j y', verify pk ms s = true ->
  (j < length ms)%nat -> (j < length (pk_y2s pk))%nat -> nth j ms f0 <> f0 -> y' <> nth j (pk_y2s pk) f0 ->
  verify (mkPk (pk_g1 pk) (pk_y1s pk) (pk_g2 pk) (pk_x2 pk) (upd j y' (pk_y2s pk))) ms s = false.
Proof. exact y2_change_rejects. Qed.

(** the all-zero message keeps the X~ term: verification is e(s1, X~) = e(s2, g~) *)
Theorem C07_verify_zero_message : forall (K : Fld) (pk : pkey K) n s,
  verify pk (repeat f0 n) s = true <-> fst s <> f0 /\ (fst s * pk_x2 pk = snd s * pk_g2 pk)%fld.
Proof. exact verify_zero_message. Qed.

Theorem C07_zero_message_signature_is_h_hx : forall (K : Fld) (sk : skey K) (pk : pkey K) n s, key_ok K sk pk ->
  (verify pk (repeat f0 n) s = true <-> fst s <> f0 /\ snd s = (fst s * sk_x sk)%fld).
Proof. exact zero_message_signature_is_h_hx. Qed.

Theorem C07_zero_message_not_signed_by_trivial_pair : forall (K : Fld) (sk : skey K) (pk : pkey K) n h,
  key_ok K sk pk -> sk_x sk <> f0 -> verify pk (repeat f0 n) (h, f0) = false.
Proof. intros K sk pk n h Hk Hx. apply not_true_is_false. intros H.
  apply (zero_message_signature_is_h_hx K sk pk n (h, f0) Hk) in H. destruct H as [H1 H2].
  symmetry in H2. destruct (proj1 (fmul_eq0_iff K _ _) H2); contradiction. Qed.

Example C07_nonvacuous :
  let kp := keygen (fq 11) (fq 17) [fq 19; fq 23; fq 29] (fq 13) in
  let ms := [fq 0; fq 1; fq (-1)] in let s := sign (fst kp) (fq 31) ms in
  verify (snd kp) ms s = true /\ verify (snd kp) (upd 1 (fq 2) ms) s = false /\
  verify (snd kp) ms (randomize (fq 0) s) = false /\
  verify (snd kp) ms (unblind (fq 9) (blind_sign (fst kp) (snd kp) (fq 3) (blind (snd kp) ms (fq 9)))) = true.
Proof. vm_compute. auto. Qed.

Print Assumptions C07_verify_iff.
Print Assumptions C07_sign_verifies.
Print Assumptions C07_keygen_ok.
Print Assumptions C07_randomize_verify.
Print Assumptions C07_all_identity_rejects.
Print Assumptions C07_unblind_blind.
Print Assumptions C07_blind_sign_unblind.
Print Assumptions C07_verify_other_message.
Print Assumptions C07_single_coordinate_rejects.
Print Assumptions C07_wrong_bf_rejects.
Print Assumptions C07_x2_change_rejects.
Print Assumptions C07_g2_change_rejects.
Print Assumptions C07_y2_change_rejects.
Print Assumptions C07_verify_zero_message.
Print Assumptions C07_zero_message_signature_is_h_hx.
Print Assumptions C07_zero_message_not_signed_by_trivial_pair.
Print Assumptions C07_nonvacuous.
