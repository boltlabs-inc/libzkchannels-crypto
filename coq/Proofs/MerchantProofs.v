From ZK Require Import Model.Field Model.Pedersen Model.PS Model.Merchant Model.Abacus Proofs.PedersenProofs Proofs.PSProofs.
Local Open Scope fld_scope.

Section P.
Variable K : Fld.

Theorem complete_payment_iff (sk : skey K) (pk : pkey K) hr gr (u : unrevoked K) urand lock bf :
  (exists tok, complete_payment sk pk hr gr u urand lock bf = inl tok) <->
  verify_opening hr [gr] (u_com u) bf [lock] = true.
Proof. unfold complete_payment, revocation_opens. destruct (verify_opening hr [gr] (u_com u) bf [lock]); split.
  - auto. - intros _. eauto. - intros [tok H]. discriminate. - discriminate. Qed.

(** a refusal hands the pending payment back unchanged, so the right pair can still complete it *)
Theorem refusal_returns_pending (sk : skey K) (pk : pkey K) hr gr (u u' : unrevoked K) urand lock bf :
  complete_payment sk pk hr gr u urand lock bf = inr u' -> u' = u /\ verify_opening hr [gr] (u_com u) bf [lock] = false.
Proof. unfold complete_payment, revocation_opens. destruct (verify_opening hr [gr] (u_com u) bf [lock]);
  [discriminate | intros [= <-]; auto]. Qed.

(** state vs close-state message: they differ exactly in the second slot when the nonce is not the close tag *)
Theorem state_close_messages_differ (close_tag cid nonce lock cb mb : K) : nonce <> close_tag ->
  state_msg cid nonce lock cb mb <> close_msg close_tag cid lock cb mb /\
  close_msg close_tag cid lock cb mb = upd 1 close_tag (state_msg cid nonce lock cb mb).
Proof. intros H. split; [|reflexivity]. intros [= E]. contradiction. Qed.

Theorem token_not_closing_signature (close_tag : K) (pk : pkey K) cid nonce lock cb mb tok :
  nonce <> close_tag -> length (pk_y2s pk) = 5%nat -> nth 1 (pk_y2s pk) f0 <> f0 ->
  verify pk (state_msg cid nonce lock cb mb) tok = true ->
  verify pk (close_msg close_tag cid lock cb mb) tok = false.
Proof. intros Hn Hl Hy V.
  apply (PSProofs.single_coordinate_rejects K pk (state_msg cid nonce lock cb mb) tok 1 close_tag V); simpl; try lia; auto. Qed.

Theorem closing_signature_not_token (close_tag : K) (pk : pkey K) cid nonce lock cb mb s :
  nonce <> close_tag -> length (pk_y2s pk) = 5%nat -> nth 1 (pk_y2s pk) f0 <> f0 ->
  verify pk (close_msg close_tag cid lock cb mb) s = true ->
  verify pk (state_msg cid nonce lock cb mb) s = false.
Proof. intros Hn Hl Hy V.
  apply (PSProofs.single_coordinate_rejects K pk (close_msg close_tag cid lock cb mb) s 1 nonce V); simpl; try lia; auto. Qed.

Theorem honest_revocation_accepted (sk : skey K) (pk : pkey K) hr gr lock bf st u :
  complete_payment sk pk hr gr (mkU (commit hr [gr] [lock] bf) st) u lock bf = inl (blind_sign sk pk u st).
Proof. unfold complete_payment, revocation_opens; cbn [u_com u_state]. now rewrite (opening_accepts_original K). Qed.

End P.
