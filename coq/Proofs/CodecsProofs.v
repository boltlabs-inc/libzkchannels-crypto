From ZK Require Import Model.Field Model.Ids Model.Wire Model.Codecs Proofs.WireProofs.
Open Scope Z_scope.

Lemma c_u_ok (n : nat) : codec_ok (c_atom n (parse_u n) (Z_to_le n) (fun z => 0 <= z < 256 ^ Z.of_nat n)).
Proof. apply (ok_int_atom n Some (fun z => z)); [auto | now intros z a R [= <-]]. Qed.

Theorem c_u8_ok : codec_ok c_u8.  Proof. exact (c_u_ok 1). Qed.
Theorem c_u64_ok : codec_ok c_u64.  Proof. exact (c_u_ok 8). Qed.

Lemma i64_of_u64_mod a : - 2 ^ 63 <= a < 2 ^ 63 -> i64_of_u64 (a mod 2 ^ 64) = a.
Proof. intros Ha. unfold i64_of_u64. destruct (Z_lt_dec a 0).
  - assert (E : a mod 2 ^ 64 = a + 2 ^ 64) by (symmetry; apply (Z.mod_unique _ _ (-1)); lia).
    rewrite E. destruct (Z.ltb_spec (a + 2 ^ 64) (2 ^ 63)); lia.
  - rewrite Z.mod_small by lia. destruct (Z.ltb_spec a (2 ^ 63)); lia. Qed.

Lemma i64_of_u64_range u : 0 <= u < 2 ^ 64 -> - 2 ^ 63 <= i64_of_u64 u < 2 ^ 63 /\ (i64_of_u64 u) mod 2 ^ 64 = u.
Proof. intros Hu. unfold i64_of_u64. destruct (Z.ltb_spec u (2 ^ 63)).
  - split; [lia|]. apply Z.mod_small. lia.
  - split; [lia|]. symmetry. apply (Z.mod_unique _ _ (-1)); lia. Qed.

Theorem c_i64_ok : codec_ok c_i64.
Proof. apply (ok_int_atom 8 (fun u => Some (i64_of_u64 u)) (fun a => a mod 2 ^ 64)).
  - intros a Ha. split; [apply Z.mod_pos_bound; lia | now rewrite i64_of_u64_mod].
  - intros z a R [= <-]. now apply i64_of_u64_range. Qed.

Theorem c_bytes_ok n : codec_ok (c_bytes n).
Proof. apply ok_tuple, c_u8_ok. Qed.

(** ** every wire type is a composition of combinators that preserve [codec_ok], down to these atoms and the three
    atom codecs a statement assumes; [ok_array]'s side condition at a literal length is closed by evaluation.
    So [codec_ok] of any wire type is [eauto 60 with codec] (60: the depth of [c_pay_proof] and to spare). *)
Create HintDb codec.
#[export] Hint Resolve ok_pair ok_validated ok_tuple ok_array c_u8_ok c_u64_ok c_i64_ok : codec.
#[export] Hint Extern 1 (Z.of_nat _ + 1 < 2 ^ 64) => reflexivity : codec.
