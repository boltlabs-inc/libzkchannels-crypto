From ZK Require Import Model.Field Model.PS Model.Amount Model.Customer Proofs.PSProofs Proofs.AmountProofs.
Local Open Scope fld_scope.

Section P.
Variable K : Fld.
Variable close_tag : K.

Notation cstate := (cstate K).
Notation stage := (stage K).
Notation step := (step close_tag).
Notation sys_step := (sys_step close_tag).
Notation run := (run close_tag).
Notation cmsg := (cmsg close_tag).

(** ** what [step] does: five accepting transitions, each with the check it passed; every other call keeps the stage *)
Inductive step_spec (pk : pkey K) : stage -> event K -> stage * output K -> Prop :=
| StepComplete s bfc bft r : verify pk (cmsg s) (unblind bfc r) = true ->
    step_spec pk (Requested s bfc bft) (EvComplete r) (Inactive s bft (unblind bfc r), ONone)
| StepActivate s bft cs r : verify pk (smsg s) (unblind bft r) = true ->
    step_spec pk (Inactive s bft cs) (EvActivate r) (Ready s (unblind bft r) cs, ONone)
| StepStart s tok cs a n l bfr bft bfc cb' mb' : apply_payment (s_cb s) (s_mb s) a = Ok (cb', mb') ->
    step_spec pk (Ready s tok cs) (EvStart a n l bfr bft bfc)
      (Started (mkCS (s_cid s) n l cb' mb') s bfr bft bfc cs, OStart (s_nonce s))
| StepLock new old bfr bft bfc ocs r : verify pk (cmsg new) (unblind bfc r) = true ->
    step_spec pk (Started new old bfr bft bfc ocs) (EvLock r) (Locked new bft (unblind bfc r), OLockMsg (s_lock old) bfr)
| StepUnlock s bft cs r : verify pk (smsg s) (unblind bft r) = true ->
    step_spec pk (Locked s bft cs) (EvUnlock r) (Ready s (unblind bft r) cs, ONone)
| StepRefused st ev : step_spec pk st ev (st, ORefused)
| StepError st ev e : step_spec pk st ev (st, OError e).

Lemma stepP (pk : pkey K) st ev : step_spec pk st ev (step pk st ev).
Proof. destruct st, ev; cbn [step]; try apply StepRefused;
  (destruct (verify _ _ _) eqn:V || destruct (apply_payment _ _ _) as [[cb' mb']|e] eqn:A); now constructor. Qed.

Theorem refused_reply_inert (pk : pkey K) (st st' : stage) ev : step pk st ev = (st', ORefused) -> st' = st.
Proof. destruct (stepP pk st ev); intros [= <-]; reflexivity. Qed.

(** ... and a reply that passes its check is accepted: the converses of the four reply cases of [step_spec] *)
Lemma step_complete (pk : pkey K) s bfc bft r : verify pk (cmsg s) (unblind bfc r) = true ->
  step pk (Requested s bfc bft) (EvComplete r) = (Inactive s bft (unblind bfc r), ONone).
Proof. intros V. cbn [step]. now rewrite V. Qed.

Lemma step_activate (pk : pkey K) s bft cs r : verify pk (smsg s) (unblind bft r) = true ->
  step pk (Inactive s bft cs) (EvActivate r) = (Ready s (unblind bft r) cs, ONone).
Proof. intros V. cbn [step]. now rewrite V. Qed.

Lemma step_lock (pk : pkey K) new old bfr bft bfc ocs r : verify pk (cmsg new) (unblind bfc r) = true ->
  step pk (Started new old bfr bft bfc ocs) (EvLock r) = (Locked new bft (unblind bfc r), OLockMsg (s_lock old) bfr).
Proof. intros V. cbn [step]. now rewrite V. Qed.

Lemma step_unlock (pk : pkey K) s bft cs r : verify pk (smsg s) (unblind bft r) = true ->
  step pk (Locked s bft cs) (EvUnlock r) = (Ready s (unblind bft r) cs, ONone).
Proof. intros V. cbn [step]. now rewrite V. Qed.

Theorem complete_accepts_iff (pk : pkey K) s bfc bft r :
  (exists st', step pk (Requested s bfc bft) (EvComplete r) = (st', ONone)) <-> verify pk (cmsg s) (unblind bfc r) = true.
Proof. split; [|intros V; eexists; now apply step_complete].
  intros [st' H]. revert H. cbn [step]. now destruct (verify pk (cmsg s) (unblind bfc r)). Qed.

(** the revocation pair leaves the customer only in the step that accepts a valid closing signature on the successor *)
Theorem secret_released_only_on_valid (pk : pkey K) (st st' : stage) ev l b : step pk st ev = (st', OLockMsg l b) ->
  exists new old bfr bft bfc ocs r,
    st = Started new old bfr bft bfc ocs /\ ev = EvLock r /\ verify pk (cmsg new) (unblind bfc r) = true /\
    l = s_lock old /\ b = bfr /\ st' = Locked new bft (unblind bfc r).
Proof. destruct (stepP pk st ev) as [| | |new old bfr bft bfc ocs r V| | |]; intros [= <- <- <-].
  now exists new, old, bfr, bft, bfc, ocs, r. Qed.

Definition main_state (st : stage) : cstate :=
  match st with
  | Requested s _ _ | Inactive s _ _ | Ready s _ _ | Locked s _ _ => s
  | Started _ old _ _ _ _ => old
  end.

Definition Inv (cid : K) (pk : pkey K) (y : sys K) : Prop :=
  let st := sy_stage y in let s := main_state st in
  s_cid s = cid /\ s_cb s = sy_cb y /\ s_mb s = sy_mb y /\ ~ In (s_lock s) (sy_disclosed y) /\
  (0 <= s_cb s <= i64_max)%Z /\ (0 <= s_mb s <= i64_max)%Z /\
  match closing_view st with Some (sig, s') => s' = s /\ verify pk (cmsg s') sig = true | None => True end /\
  match st with
  | Ready s tok _ => verify pk (smsg s) tok = true
  | Started new old _ _ _ _ => s_cid new = cid /\ ~ In (s_lock new) (sy_disclosed y) /\ s_lock new <> s_lock old /\
                               (0 <= s_cb new <= i64_max)%Z /\ (0 <= s_mb new <= i64_max)%Z
  | _ => True
  end.

(** what a step draws must be fresh - a new revocation lock has not been disclosed and differs from the current one -
    and a payment amount is an i64 (the type of [PaymentAmount]) *)
Definition event_fresh (y : sys K) (ev : event K) : Prop :=
  match ev with
  | EvStart a _ lock' _ _ _ => ~ In lock' (sy_disclosed y) /\ lock' <> s_lock (main_state (sy_stage y)) /\ is_i64 a
  | _ => True
  end.

(** [Inv] in two parts: the state a close would use is the ledger's, and the stage holds what it should *)
Definition current (cid : K) (cb mb : Z) (dis : list K) (s : cstate) : Prop :=
  s_cid s = cid /\ s_cb s = cb /\ s_mb s = mb /\ ~ In (s_lock s) dis /\ (0 <= s_cb s <= i64_max)%Z /\ (0 <= s_mb s <= i64_max)%Z.

Definition holds (cid : K) (pk : pkey K) (dis : list K) (st : stage) : Prop :=
  match st with
  | Requested _ _ _ => True
  | Inactive s _ cs | Locked s _ cs => verify pk (cmsg s) cs = true
  | Ready s tok cs => verify pk (cmsg s) cs = true /\ verify pk (smsg s) tok = true
  | Started new old _ _ _ ocs =>
      verify pk (cmsg old) ocs = true /\ s_cid new = cid /\ ~ In (s_lock new) dis /\ s_lock new <> s_lock old /\
      (0 <= s_cb new <= i64_max)%Z /\ (0 <= s_mb new <= i64_max)%Z
  end.

Lemma Inv_iff cid pk y : Inv cid pk y <->
  current cid (sy_cb y) (sy_mb y) (sy_disclosed y) (main_state (sy_stage y)) /\ holds cid pk (sy_disclosed y) (sy_stage y).
Proof. split.
  - intros (H1 & H2 & H3 & H4 & H5 & H6 & HV). split; [exact (conj H1 (conj H2 (conj H3 (conj H4 (conj H5 H6)))))|].
    revert HV. clear. destruct (sy_stage y); cbn [main_state closing_view holds]; tauto.
  - intros [(H1 & H2 & H3 & H4 & H5 & H6) HV]. do 6 (split; [assumption|]).
    revert HV. clear. destruct (sy_stage y); cbn [main_state closing_view holds]; tauto. Qed.

Theorem inv_step cid (pk : pkey K) (y : sys K) ev : Inv cid pk y -> event_fresh y ev -> Inv cid pk (fst (sys_step pk y ev)).
Proof. rewrite !Inv_iff. destruct y as [st cb mb dis]. unfold sys_step. cbn [sy_stage].
  destruct (stepP pk st ev) as [s bfc bft r V|s bft cs r V|s tok cs a n l bfr bft bfc cb' mb' A|new old bfr bft bfc ocs r V|s bft cs r V| |];
    cbn [fst sy_stage sy_cb sy_mb sy_disclosed main_state holds event_fresh]; try (intros H _; exact H).
  - intros [C _] _. exact (conj C V).
  - intros [C V0] _. exact (conj C (conj V0 V)).
  - intros [C [V0 _]] (F1 & F2 & Ha). pose proof C as (Hcid & _ & _ & _ & Rc & Rm).
    destruct (apply_payment_ok_inv _ _ _ _ _ Rc Rm Ha A) as (_ & _ & R1 & R2 & _).
    exact (conj C (conj V0 (conj Hcid (conj F1 (conj F2 (conj R1 R2)))))).
  - intros [_ (_ & Hcid & D & Ne & R)] _.
    assert (N : ~ In (s_lock new) (s_lock old :: dis)) by (intros [E|I]; [now apply Ne | now apply D]).
    exact (conj (conj Hcid (conj eq_refl (conj eq_refl (conj N R)))) V).
  - intros [C V0] _. exact (conj C (conj V0 V)). Qed.

Fixpoint fresh_along (pk : pkey K) (y : sys K) (evs : list (event K)) : Prop :=
  match evs with
  | [] => True
  | ev :: evs => event_fresh y ev /\ fresh_along pk (fst (sys_step pk y ev)) evs
  end.

(** every reachable system state - through any number of honest steps and arbitrary (invalid, replayed, wrongly keyed,
    wrong-type) replies - satisfies the invariant *)
Theorem inv_reachable cid (pk : pkey K) evs : forall y, Inv cid pk y -> fresh_along pk y evs -> Inv cid pk (run pk y evs).
Proof. induction evs as [|ev evs IH]; intros y Hi Hf; [exact Hi|]. destruct Hf as [F1 F2].
  apply IH; [now apply inv_step | exact F2]. Qed.

(** ... and from every such state except Requested the customer can close, the merchant's check accepts (closing randomiser
    non-zero), and the message carries the channel id, the ledger's balances for the stage and an undisclosed lock *)
Theorem close_accepted cid (pk : pkey K) (y : sys K) rho : Inv cid pk y -> rho <> f0 ->
  match close_of (sy_stage y) rho with
  | Some (sig, s) => check_close close_tag pk sig s = true /\ s_cid s = cid /\ s_cb s = sy_cb y /\ s_mb s = sy_mb y /\
                     ~ In (s_lock s) (sy_disclosed y)
  | None => exists s bfc bft, sy_stage y = Requested s bfc bft
  end.
Proof. intros [(Hcid & Hcb & Hmb & Hdis & _) H]%Inv_iff Hr.
  destruct (sy_stage y); cbn [close_of main_state holds] in *; [now eexists _, _, _ | ..];
    (split; [apply (randomize_nonzero_verifies K); [assumption | apply H] | auto]). Qed.

Theorem inv_init cid (pk : pkey K) s bfc bft : s_cid s = cid -> (0 <= s_cb s <= i64_max)%Z -> (0 <= s_mb s <= i64_max)%Z ->
  Inv cid pk (mkSys (Requested s bfc bft) (s_cb s) (s_mb s) []).
Proof. intros Hc R1 R2. apply Inv_iff. split; [|exact I].
  exact (conj Hc (conj eq_refl (conj eq_refl (conj (@in_nil _ _) (conj R1 R2))))). Qed.

(** any number of refused replies, of any kind, leaves the customer exactly where it was - so the honest reply that follows is
    treated as if nothing had happened *)
Theorem refused_replies_do_not_matter (pk : pkey K) evs : forall (st : stage),
  Forall (fun ev => snd (step pk st ev) = ORefused) evs ->
  fold_left (fun s ev => fst (step pk s ev)) evs st = st.
Proof. induction evs as [|ev evs IH]; intros st HF; cbn [fold_left]; [reflexivity|].
  inversion HF as [|x l H1 H2]. revert H1. destruct (stepP pk st ev); try discriminate. intros _. now apply IH. Qed.

(** ** revocation: the state a close would use changes only in the step that discloses its lock, and disclosed locks stay
    disclosed - so every closing message made for a state that has since been superseded carries a disclosed lock (the
    merchant can refute it), while the current one never does ([close_accepted]) *)
Lemma step_keeps_or_discloses (pk : pkey K) (y : sys K) ev :
  let y' := fst (sys_step pk y ev) in
  (main_state (sy_stage y') = main_state (sy_stage y) /\ sy_disclosed y' = sy_disclosed y) \/
  (In (s_lock (main_state (sy_stage y))) (sy_disclosed y') /\ incl (sy_disclosed y) (sy_disclosed y')).
Proof. destruct y as [st cb mb dis]. unfold sys_step. cbn [sy_stage sy_disclosed].
  destruct (stepP pk st ev); cbn [fst sy_stage sy_disclosed main_state]; try (left; split; reflexivity).
  right. split; [left; reflexivity | apply incl_tl, incl_refl]. Qed.

Theorem superseded_state_is_revoked (pk : pkey K) evs : forall (y : sys K),
  let y' := run pk y evs in
  incl (sy_disclosed y) (sy_disclosed y') /\
  (main_state (sy_stage y') = main_state (sy_stage y) \/ In (s_lock (main_state (sy_stage y))) (sy_disclosed y')).
Proof. induction evs as [|ev evs IH]; intros y.
  - split; [apply incl_refl | left; reflexivity].
  - destruct (IH (fst (sys_step pk y ev))) as [I1 I2].
    destruct (step_keeps_or_discloses pk y ev) as [[E1 E2]|[D1 D2]].
    + rewrite E1, E2 in *. split; assumption.
    + split; [eapply incl_tran; eassumption|]. right. apply I1. exact D1. Qed.

Section Honest.
Variables (sk : skey K) (pk : pkey K).

(** one full honest payment: start, honest closing signature, lock, honest pay token, unlock *)
Definition honest_payment (st : stage) (a : Z) (nonce' lock' bfr bft bfc u1 u2 : K) : stage * output K :=
  match step pk st (EvStart a nonce' lock' bfr bft bfc) with
  | (Started new old r t c ocs as st1, OStart _) =>
      let (st2, _) := step pk st1 (EvLock (blind_sign sk pk u1 (blind pk (cmsg new) c))) in
      match st2 with
      | Locked s t' cs => step pk st2 (EvUnlock (blind_sign sk pk u2 (blind pk (smsg s) t')))
      | _ => (st2, ORefused)
      end
  | r => r
  end.

End Honest.

End P.
