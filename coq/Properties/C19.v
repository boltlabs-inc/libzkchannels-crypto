(** C19 — Generated keys and parameters are well-formed for every randomness stream. *)
From ZK Require Import Model.Field Model.QBls Model.Pedersen Model.PS Model.Range Model.Keygen Proofs.PSProofs
  Proofs.KeygenProofs Model.Protocol Proofs.ProtocolProofs.
Local Open Scope fld_scope.

Theorem C19_keygen_wf : forall (K : Fld) n (g1s scalars g2s : list K) sk pk,
  keygen_stream n g1s scalars g2s = Some (sk, pk) ->
  length (sk_ys sk) = n /\ sk_wf sk = true /\ pk_wf pk = true /\ key_ok K sk pk /\ pk_g1 pk <> f0 /\
  (forall h ms, h <> f0 -> verify pk ms (sign sk h ms) = true).
Proof. exact keygen_wf. Qed.

Theorem C19_keygen_terminates : forall (K : Fld) n (g1s scalars g2s : list K),
  (exists y, In y g1s /\ y <> f0) -> (exists y, In y g2s /\ y <> f0) ->
  (exists r, take_nonzero (S n) scalars = Some r) ->
  exists kp, keygen_stream n g1s scalars g2s = Some kp.
Proof. intros K n g1s scalars g2s H1 H2 [[xs r] H3]. unfold keygen_stream.
  destruct (next_nonzero_some K _ H1) as [[g1 r1] ->]. destruct (next_nonzero_some K _ H2) as [[g2 r2] ->]. rewrite H3.
  destruct (take_nonzero_spec K _ _ _ _ H3) as [L _]. destruct xs; [discriminate|]. eauto. Qed.

Theorem C19_nonzero_draws_skip_exactly_the_zeros : forall (K : Fld) (draws : list K) x rest,
  next_nonzero draws = Some (x, rest) ->
  x <> f0 /\ exists pre, draws = pre ++ x :: rest /\ Forall (fun y => y = f0) pre.
Proof. exact next_nonzero_spec. Qed.

Theorem C19_pedersen_new_wf : forall (K : Fld) n (gdraws : list K) h gs,
  pedersen_new_stream n gdraws = Some (h, gs) -> length gs = n /\ params_wf h gs = true.
Proof. exact pedersen_new_wf. Qed.

Theorem C19_range_params_new_valid : forall (K : Fld) (sk : skey K) (pk : pkey K) hs,
  key_ok K sk pk -> Forall (fun h => h <> f0) hs ->
  validate (range_params_new sk pk hs) = true /\ length (rp_sigs (range_params_new sk pk hs)) = length hs.
Proof. exact range_params_new_valid. Qed.

(** [merchant::Config::new] as a whole: for every choice of streams in which each generator finds enough non-identity /
    non-zero draws, the generated configuration is fit for honest runs ([mconfig_ok]: consistent key with non-identity g1, valid
    range parameters with 128 digit signatures), its revocation-commitment generators are not the identity, and the key
    lengths are 5 and 1 - so the whole-run theorems of C04 apply to generated configurations *)
Theorem C19_generated_merchant_config_fit_for_honest_runs : forall (K : Fld) g1s scalars g2s rev_draws rg1s rscalars rg2s bases (m : mconfig K),
  merchant_config_new g1s scalars g2s rev_draws rg1s rscalars rg2s bases = Some m ->
  mconfig_ok K m /\ m_hr m <> f0 /\ m_gr m <> f0 /\ length (pk_y1s (m_pk m)) = 5%nat /\ length (pk_y2s (rp_pk (m_rp m))) = 1%nat.
Proof. exact generated_config_ok. Qed.

Example C19_nonvacuous :
  match keygen_stream 2 [fq 0; fq 11] [fq 0; fq 0; fq 17; fq 0; fq 19; fq 23; fq 99] [fq 13] with
  | Some (sk, pk) => sk_x sk = fq 17 /\ sk_ys sk = [fq 19; fq 23] /\ pk_wf pk = true
  | None => False end.
Proof. vm_compute. auto. Qed.

Print Assumptions C19_keygen_wf.
Print Assumptions C19_keygen_terminates.
Print Assumptions C19_nonzero_draws_skip_exactly_the_zeros.
Print Assumptions C19_pedersen_new_wf.
Print Assumptions C19_range_params_new_valid.
Print Assumptions C19_nonvacuous.
Print Assumptions C19_generated_merchant_config_fit_for_honest_runs.
