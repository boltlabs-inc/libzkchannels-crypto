(** C17 — Balance and amount arithmetic is total, exact and range-preserving (all 64-bit inputs, both
    overflow profiles). Integers are Z with explicit ranges; "never panics or wraps" is a statement about
    the explicit [outcome] of every operation that can overflow (Model/Amount.v), not about Gallina's totality. *)
From ZK Require Import Model.Field Model.QBls Model.Amount Proofs.IdsProofs Proofs.AmountProofs.
Open Scope Z_scope.

Theorem C17_try_new_spec : forall v, is_u64 v ->
  (v <= i64_max -> balance_try_new v = Ok v) /\ (v > i64_max -> balance_try_new v = Err (AmountTooLarge v)).
Proof. exact try_new_spec. Qed.

Theorem C17_pay_merchant_spec : forall amount, is_u64 amount ->
  (amount <= i64_max -> pay_merchant amount = Ok amount) /\
  (amount > i64_max -> pay_merchant amount = Err (AmountTooLarge amount)).
Proof. exact pay_merchant_spec. Qed.

Theorem C17_pay_customer_spec : forall amount, is_u64 amount ->
  (amount <= i64_max -> pay_customer amount = Ok (- amount) /\ is_i64 (- amount)) /\
  (amount > i64_max -> pay_customer amount = Err (AmountTooLarge amount)).
Proof. exact pay_customer_spec. Qed.

Theorem C17_apply_payment_spec : forall cb mb a, 0 <= cb <= i64_max -> 0 <= mb <= i64_max -> is_i64 a ->
  (0 <= cb - a <= i64_max /\ 0 <= mb + a <= i64_max -> apply_payment cb mb a = Ok (cb - a, mb + a)) /\
  (forall cb' mb', apply_payment cb mb a = Ok (cb', mb') ->
     cb' = cb - a /\ mb' = mb + a /\ 0 <= cb' <= i64_max /\ 0 <= mb' <= i64_max /\ cb' + mb' = cb + mb) /\
  (cb - a < 0 -> apply_payment cb mb a = Err InsufficientFunds) /\
  (cb - a > i64_max -> apply_payment cb mb a = Err (AmountTooLarge (cb - a))) /\
  (0 <= cb - a <= i64_max -> mb + a < 0 -> apply_payment cb mb a = Err InsufficientFunds) /\
  (0 <= cb - a <= i64_max -> mb + a > i64_max -> apply_payment cb mb a = Err (AmountTooLarge (mb + a))).
Proof. exact apply_payment_spec. Qed.

Theorem C17_try_add_never_overflows : forall pr mb cb, 0 <= mb <= i64_max -> 0 <= cb <= i64_max ->
  try_add pr mb cb = Val (balance_try_new (mb + cb)).
Proof. exact try_add_spec. Qed.

Theorem C17_balance_decode_spec : forall v b, is_u64 v -> (balance_decode v = Some b <-> b = v /\ v <= i64_max).
Proof. intros v b Hv. unfold balance_decode.
  transitivity (balance_try_new v = Ok b); [destruct (balance_try_new v); split; congruence|].
  rewrite (try_new_ok_iff v b Hv). unfold is_u64 in Hv. intuition lia. Qed.

(** the scalar encoding is total on all of i64 (no abs overflow) and is the ring image of the integer ... *)
Theorem C17_amount_scalar_total : forall (K : Fld) a, amount_scalar (K:=K) a = of_Z a.
Proof. exact amount_scalar_spec. Qed.

(** ... hence consistent with integer arithmetic *)
Theorem C17_encoding_homomorphic : forall (K : Fld) (b a : Z),
  fsub (balance_scalar (K:=K) b) (amount_scalar a) = balance_scalar (b - a) /\
  fadd (balance_scalar (K:=K) b) (amount_scalar a) = balance_scalar (b + a).
Proof. exact encoding_homomorphic. Qed.

(** in the BLS12-381 scalar field the encoding is injective on [0, q): field equations between encoded balances
    are integer equations *)
Theorem C17_encoding_injective_below_q : forall x y, 0 <= x < q_bls -> 0 <= y < q_bls -> @of_Z Fq x = @of_Z Fq y -> x = y.
Proof. intros x y Hx Hy. apply scalar_encoding_injective_within_q. lia. Qed.

(** refutation of the pinned code (D4): with overflow checks on, the old encoding panics on i64::MIN *)
Theorem C17_pinned_amount_min_overflows_refuted : forall (K : Fld), amount_scalar_pinned (K:=K) Debug i64_min = Panics.
Proof. reflexivity. Qed.

(** without the invariant the sum can overflow: this is why the balance decoder must validate (D2) *)
Theorem C17_try_add_needs_the_decoder_invariant :
  try_add Debug u64_max 1 = Panics /\ exists w, try_add Release u64_max 1 = Val (Ok w) /\ w = 0.
Proof. split; [reflexivity|]. eexists. split; reflexivity. Qed.

Example C17_nonvacuous :
  apply_payment (2 ^ 63 - 1) 0 (2 ^ 63 - 1) = Ok (0, 2 ^ 63 - 1) /\
  apply_payment 0 (2 ^ 63 - 1) (- 2 ^ 63) = Err (AmountTooLarge (2 ^ 63)) /\
  apply_payment 5 5 6 = Err InsufficientFunds /\ pay_customer (2 ^ 63) = Err (AmountTooLarge (2 ^ 63)).
Proof. vm_compute. auto. Qed.

(** the amount encoding is injective on ALL i64 values (not only on the amounts a constructor can produce): two different wire
    amounts never share a scalar - so a proof made for one amount cannot pass for another through the encoding *)
Theorem C17_amount_encoding_injective_on_i64 : forall a a', is_i64 a -> is_i64 a' ->
  amount_scalar (K:=Fq) a = amount_scalar a' -> a = a'.
Proof. exact amount_encoding_injective_on_i64. Qed.

Print Assumptions C17_try_new_spec.
Print Assumptions C17_pay_merchant_spec.
Print Assumptions C17_pay_customer_spec.
Print Assumptions C17_apply_payment_spec.
Print Assumptions C17_try_add_never_overflows.
Print Assumptions C17_balance_decode_spec.
Print Assumptions C17_amount_scalar_total.
Print Assumptions C17_encoding_homomorphic.
Print Assumptions C17_encoding_injective_below_q.
Print Assumptions C17_pinned_amount_min_overflows_refuted.
Print Assumptions C17_try_add_needs_the_decoder_invariant.
Print Assumptions C17_nonvacuous.
Print Assumptions C17_amount_encoding_injective_on_i64.
