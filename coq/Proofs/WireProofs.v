From ZK Require Import Model.Field Model.Ids Model.Wire Proofs.FieldFacts.
Open Scope Z_scope.

Lemma take_app (n : nat) (b rest : list Z) : length b = n -> take n (b ++ rest) = Some (b, rest).
Proof. intros L. unfold take. rewrite app_length. destruct (Nat.leb_spec n (length b + length rest)); [|lia].
  rewrite firstn_app, skipn_app, L, Nat.sub_diag. rewrite <- L, firstn_all, skipn_all, app_nil_r. reflexivity. Qed.

Lemma take_some (n : nat) (bs b rest : list Z) : take n bs = Some (b, rest) -> bs = b ++ rest /\ length b = n.
Proof. unfold take. destruct (Nat.leb_spec n (length bs)); [|discriminate]. intros [= <- <-].
  split; [symmetry; apply firstn_skipn | apply firstn_length_le; assumption]. Qed.

Lemma Z_to_le_length n z : length (Z_to_le n z) = n.
Proof. exact (to_base_length 256 n z). Qed.

Lemma Z_to_le_bytes n z : Forall is_byte (Z_to_le n z).
Proof. exact (to_base_digits 256 eq_refl n z). Qed.

Lemma le_to_Z_range (bs : list Z) : Forall is_byte bs -> 0 <= le_to_Z bs < 256 ^ Z.of_nat (length bs).
Proof. exact (of_base_range 256 eq_refl bs). Qed.

Lemma le_roundtrip n z : 0 <= z < 256 ^ Z.of_nat n -> le_to_Z (Z_to_le n z) = z.
Proof. exact (of_to_base 256 eq_refl n z). Qed.

Lemma le_roundtrip_bytes n (bs : list Z) : length bs = n -> Forall is_byte bs -> Z_to_le n (le_to_Z bs) = bs.
Proof. intros <-. exact (to_of_base 256 bs). Qed.

(** ** results.  Two things are said of a decoder: what it returns ([res_of]), and that whatever the input it
    neither panics nor asks for more than 1024 elements ([safe]); [dbind] has one lemma for each. *)
Definition safe {A} (r : dres A) : Prop := r <> DPanic /\ alloc_of r <= 1024.

Lemma res_dbind {A B} (r : dres A) (f : A -> list Z -> dres B) :
  res_of (dbind r f) = match res_of r with Some (a, rest) => res_of (f a rest) | None => None end.
Proof. destruct r as [a rest al| |]; simpl; [destruct (f a rest)|..]; reflexivity. Qed.

Lemma dbind_safe {A B} (r : dres A) (f : A -> list Z -> dres B) :
  safe r -> (forall a rest, safe (f a rest)) -> safe (dbind r f).
Proof. unfold safe. intros [Pr Ar] Hf. destruct r as [a rest al| |]; [simpl in * | split; [discriminate | exact Ar] | congruence].
  destruct (Hf a rest) as [Pf Af]. destruct (f a rest); simpl in *; split; congruence || lia. Qed.

Lemma safe_ok {A} (a : A) rest : safe (DOk a rest 0).  Proof. split; [discriminate | simpl; lia]. Qed.
Lemma safe_err {A} al : al <= 1024 -> safe (@DErr A al).  Proof. split; [discriminate | assumption]. Qed.

(** [codec_ok] with its last two fields as one *)
Lemma codec_ok_intro {A} (c : codec A) :
  (forall a rest, wf c a -> res_of (dec c (enc c a ++ rest)) = Some (a, rest)) ->
  (forall bs a rest, Forall is_byte bs -> res_of (dec c bs) = Some (a, rest) -> wf c a /\ bs = enc c a ++ rest) ->
  (forall bs, safe (dec c bs)) -> codec_ok c.
Proof. intros R C Sf. constructor; auto; apply Sf. Qed.

Lemma ok_safe {A} (c : codec A) : codec_ok c -> forall bs, safe (dec c bs).
Proof. intros [_ _ P Al] bs. split; auto. Qed.

Lemma ok_canon {A} (c : codec A) : codec_ok c -> forall bs a rest, Forall is_byte bs ->
  res_of (dec c bs) = Some (a, rest) -> wf c a /\ bs = enc c a ++ rest /\ Forall is_byte rest.
Proof. intros Hc bs a rest Hb H. destruct (ok_canonical c Hc bs a rest Hb H) as [W ->].
  apply Forall_app in Hb. tauto. Qed.

Theorem ok_atom {A} (n : nat) (parse : list Z -> option A) (ser : A -> list Z) (ok : A -> Prop) :
  (forall a, ok a -> length (ser a) = n /\ parse (ser a) = Some a) ->
  (forall b a, length b = n -> Forall is_byte b -> parse b = Some a -> ok a /\ ser a = b) ->
  codec_ok (c_atom n parse ser ok).
Proof. intros H1 H2. apply codec_ok_intro; simpl.
  - intros a rest Ha. destruct (H1 a Ha) as [L P]. rewrite (take_app n _ _ L), P. reflexivity.
  - intros bs a rest Hb. destruct (take n bs) as [[b r]|] eqn:E; [|discriminate].
    apply take_some in E. destruct E as [-> L]. apply Forall_app in Hb. destruct Hb as [Hb _].
    destruct (parse b) as [a'|] eqn:P; [|discriminate]. intros [= <- <-].
    destruct (H2 b a' L Hb P) as [Ho <-]. auto.
  - intros bs. destruct (take n bs) as [[b r]|]; [destruct (parse b)|]; (apply safe_ok || now apply safe_err). Qed.

(** an integer atom: [n] little-endian bytes read as an integer, then a partial map [of] whose inverse on [ok] is [to] *)
Theorem ok_int_atom {A} (n : nat) (of : Z -> option A) (to : A -> Z) (ok : A -> Prop) :
  (forall a, ok a -> 0 <= to a < 256 ^ Z.of_nat n /\ of (to a) = Some a) ->
  (forall z a, 0 <= z < 256 ^ Z.of_nat n -> of z = Some a -> ok a /\ to a = z) ->
  codec_ok (c_atom n (fun b => of (le_to_Z b)) (fun a => Z_to_le n (to a)) ok).
Proof. intros H1 H2. apply ok_atom.
  - intros a Ha. destruct (H1 a Ha) as [R E]. split; [apply Z_to_le_length | now rewrite le_roundtrip].
  - intros b a L Hb P. pose proof (le_to_Z_range b Hb) as R. rewrite L in R. destruct (H2 _ a R P) as [Ho ->].
    split; [exact Ho | now apply le_roundtrip_bytes]. Qed.

Theorem ok_pair {A B} (ca : codec A) (cb : codec B) : codec_ok ca -> codec_ok cb -> codec_ok (c_pair ca cb).
Proof. intros Ha Hb. apply codec_ok_intro; simpl.
  - intros [a b] rest [Wa Wb].
    rewrite <- app_assoc, res_dbind, (ok_roundtrip _ Ha), res_dbind, (ok_roundtrip _ Hb) by assumption. reflexivity.
  - intros bs [a b] rest Hbs H. rewrite res_dbind in H.
    destruct (res_of (dec ca bs)) as [[a' r1]|] eqn:E1; [|discriminate]. rewrite res_dbind in H.
    destruct (res_of (dec cb r1)) as [[b' r2]|] eqn:E2; [|discriminate]. injection H as <- <- <-.
    destruct (ok_canon _ Ha _ _ _ Hbs E1) as (Wa & -> & Hr1). destruct (ok_canon _ Hb _ _ _ Hr1 E2) as (Wb & -> & _).
    rewrite app_assoc. auto.
  - intros bs. apply dbind_safe; [now apply ok_safe|]. intros a r1. apply dbind_safe; [now apply ok_safe|]. intros. apply safe_ok. Qed.

Theorem ok_validated {A} (c : codec A) (p : A -> bool) : codec_ok c -> codec_ok (c_validated c p).
Proof. intros Hc. apply codec_ok_intro; simpl.
  - intros a rest [Wa Hp]. rewrite res_dbind, (ok_roundtrip _ Hc), Hp by assumption. reflexivity.
  - intros bs a rest Hbs H. rewrite res_dbind in H. destruct (res_of (dec c bs)) as [[a' r1]|] eqn:E1; [|discriminate].
    destruct (p a') eqn:E; [|discriminate]. injection H as <- <-. destruct (ok_canon _ Hc _ _ _ Hbs E1) as (W & -> & _). auto.
  - intros bs. apply dbind_safe; [now apply ok_safe|]. intros a r1. destruct (p a); [apply safe_ok | now apply safe_err]. Qed.

(** ** n elements without prefix.  The two prefixed sequence decoders below return what [dec_n] returns. *)
Lemma dec_n_length {A} (c : codec A) : forall n bs l rest, res_of (dec_n c n bs) = Some (l, rest) -> length l = n.
Proof. induction n as [|n IH]; intros bs l rest H; cbn [dec_n] in H; [injection H as <- _; reflexivity|].
  rewrite res_dbind in H. destruct (res_of (dec c bs)) as [[a r1]|]; [|discriminate]. rewrite res_dbind in H.
  destruct (res_of (dec_n c n r1)) as [[l' r2]|] eqn:E; [|discriminate]. injection H as <- _. simpl. f_equal. eauto. Qed.

Theorem ok_tuple {A} (n : nat) (c : codec A) : codec_ok c -> codec_ok (c_tuple n c).
Proof. intros Hc. apply codec_ok_intro; simpl.
  - intros l rest [<- F]. induction F as [|a l Wa _ IH]; [reflexivity|]. cbn [flat_map length dec_n].
    rewrite <- app_assoc, res_dbind, (ok_roundtrip _ Hc), res_dbind, IH by assumption. reflexivity.
  - induction n as [|n IH]; intros bs l rest Hbs H; cbn [dec_n] in H; [injection H as <- <-; auto|].
    rewrite res_dbind in H. destruct (res_of (dec c bs)) as [[a r1]|] eqn:E1; [|discriminate]. rewrite res_dbind in H.
    destruct (res_of (dec_n c n r1)) as [[l' r2]|] eqn:E2; [|discriminate]. injection H as <- <-.
    destruct (ok_canon _ Hc _ _ _ Hbs E1) as (W & -> & Hr1). destruct (IH _ _ _ Hr1 E2) as [[L F] ->].
    simpl. rewrite app_assoc. auto.
  - induction n as [|n IH]; intros bs; [apply safe_ok|]. apply dbind_safe; [now apply ok_safe|]. intros a r1.
    apply dbind_safe; [apply IH|]. intros. apply safe_ok. Qed.

(** ** the two length-prefixed sequences: [G; N] through the ArrayVec visitor, and Vec<G>.
    Both loops return what [dec_n] returns while their budget (capacity, fuel) lasts, and nothing after. *)
Definition onto {A} (acc : list A) (o : option (list A * list Z)) : option (list A * list Z) :=
  match o with Some (l, rest) => Some (rev acc ++ l, rest) | None => None end.

Lemma onto_nil {A} o : @onto A [] o = o.  Proof. now destruct o as [[l r]|]. Qed.

Lemma le8_roundtrip z : 0 <= z < 2 ^ 64 -> le_to_Z (le8 z) = z.
Proof. apply (le_roundtrip 8). Qed.

Lemma le8_canonical lb : length lb = 8%nat -> Forall is_byte lb -> 0 <= le_to_Z lb < 2 ^ 64 /\ le8 (le_to_Z lb) = lb.
Proof. intros L Hb. split; [apply le_to_Z_range in Hb; now rewrite L in Hb | now apply le_roundtrip_bytes]. Qed.

Section Seq.
Context {A : Type} (c : codec A).

(** [b]: the budget lasts *)
Lemma onto_step (b : bool) acc bs (G : A -> list Z -> dres (list A)) k :
  (forall a rest, res_of (G a rest) = if b then onto (a :: acc) (res_of (dec_n c k rest)) else None) ->
  res_of (dbind (dec c bs) G) = if b then onto acc (res_of (dec_n c (S k) bs)) else None.
Proof. intros HG. cbn [dec_n]. rewrite !res_dbind. destruct (res_of (dec c bs)) as [[a r1]|]; [|now destruct b].
  rewrite HG, res_dbind. destruct b, (res_of (dec_n c k r1)) as [[l r2]|]; try reflexivity. simpl. now rewrite <- app_assoc. Qed.

Lemma array_go_S fp cap todo acc bs : (length acc < cap)%nat ->
  dec_array_go c fp cap (S todo) acc bs = dbind (dec c bs) (fun a rest => dec_array_go c fp cap todo (a :: acc) rest).
Proof. intros L. cbn [dec_array_go]. destruct (Nat.ltb_spec (length acc) cap); [reflexivity|lia]. Qed.

Lemma vec_go_S fuel todo acc bs : 0 < todo ->
  dec_vec_go c (S fuel) todo acc bs = dbind (dec c bs) (fun a rest => dec_vec_go c fuel (todo - 1) (a :: acc) rest).
Proof. intros T. cbn [dec_vec_go]. destruct (Z.leb_spec todo 0); [lia|reflexivity]. Qed.

Lemma array_go_res fp cap : forall todo acc bs, (length acc + todo <= cap)%nat ->
  res_of (dec_array_go c fp cap todo acc bs) = onto acc (res_of (dec_n c todo bs)).
Proof. induction todo as [|todo IH]; intros acc bs L; [simpl; now rewrite app_nil_r|].
  rewrite array_go_S by lia. apply (onto_step true). intros a rest. apply IH. simpl. lia. Qed.

Lemma vec_go_stop fuel todo acc bs : todo <= 0 -> dec_vec_go c fuel todo acc bs = DOk (rev acc) bs 0.
Proof. intros T. destruct fuel; cbn [dec_vec_go]; destruct (Z.leb_spec todo 0); (reflexivity || lia). Qed.

Lemma vec_go_res : forall fuel todo acc bs,
  res_of (dec_vec_go c fuel todo acc bs) =
  if (Z.to_nat todo <=? fuel)%nat then onto acc (res_of (dec_n c (Z.to_nat todo) bs)) else None.
Proof. induction fuel as [|fuel IH]; intros todo acc bs; (destruct (Z_le_gt_dec todo 0) as [T|T];
    [rewrite vec_go_stop by assumption; replace (Z.to_nat todo) with 0%nat by lia; simpl; now rewrite app_nil_r|]);
    replace (Z.to_nat todo) with (S (Z.to_nat (todo - 1))) by lia.
  - cbn. destruct (Z.leb_spec todo 0); [lia|reflexivity].
  - rewrite vec_go_S by lia. apply onto_step. intros a rest. apply IH. Qed.

(** a length prefix [k] that passes [guard], then [c_tuple k c]: what both decoders return *)
Definition prefixed (guard : Z -> list Z -> bool) (bs : list Z) : option (list A * list Z) :=
  match take 8 bs with
  | Some (lb, rest) => if guard (le_to_Z lb) rest then res_of (dec_n c (Z.to_nat (le_to_Z lb)) rest) else None
  | None => None
  end.

Lemma dec_array_res fp n bs : res_of (dec_array c fp n bs) = prefixed (fun k _ => k =? Z.of_nat n) bs.
Proof. unfold dec_array, prefixed. destruct (take 8 bs) as [[lb rest]|]; [|reflexivity].
  destruct (Z.eqb_spec (le_to_Z lb) (Z.of_nat n)) as [->|_].
  - rewrite Nat2Z.id. replace (Z.to_nat _) with n by lia. pose proof (array_go_res fp n n [] rest (le_n n)) as G. rewrite onto_nil in G.
    rewrite <- G. destruct (dec_array_go c fp n n [] rest) as [l r al| |]; try reflexivity.
    now rewrite (dec_n_length c n rest l r (eq_sym G)), Nat.eqb_refl.
  - destruct (dec_array_go c fp n _ [] rest); [rewrite andb_false_r|..]; reflexivity. Qed.

(** the rest can hold the announced number of elements, at one byte an element at the least *)
Lemma dec_vec_res lim bs : res_of (dec_vec c lim bs) = prefixed (fun k rest => (Z.to_nat k <=? S (length rest))%nat) bs.
Proof. unfold dec_vec, prefixed. destruct (take 8 bs) as [[lb rest]|]; [|reflexivity].
  rewrite <- (onto_nil (res_of (dec_n c _ rest))), <- vec_go_res. now destruct (dec_vec_go c _ _ [] rest). Qed.

Context (Hc : codec_ok c).

Lemma prefixed_roundtrip guard (l : list A) rest : Forall (wf c) l -> Z.of_nat (length l) < 2 ^ 64 ->
  guard (Z.of_nat (length l)) (flat_map (enc c) l ++ rest) = true ->
  prefixed guard (le8 (Z.of_nat (length l)) ++ flat_map (enc c) l ++ rest) = Some (l, rest).
Proof. intros F L G. unfold prefixed. rewrite (take_app 8), le8_roundtrip, G, Nat2Z.id by (apply Z_to_le_length || lia).
  now apply (ok_roundtrip _ (ok_tuple (length l) c Hc)). Qed.

Lemma prefixed_canonical guard bs (l : list A) rest : Forall is_byte bs -> prefixed guard bs = Some (l, rest) ->
  Forall (wf c) l /\ bs = le8 (Z.of_nat (length l)) ++ flat_map (enc c) l ++ rest /\
  guard (Z.of_nat (length l)) (flat_map (enc c) l ++ rest) = true.
Proof. unfold prefixed. intros Hb H. destruct (take 8 bs) as [[lb r]|] eqn:T; [|discriminate].
  apply take_some in T. destruct T as [-> L8]. apply Forall_app in Hb. destruct Hb as [Hlb Hr].
  destruct (guard _ r) eqn:G; [|discriminate]. destruct (ok_canonical _ (ok_tuple _ c Hc) r l rest Hr H) as [[L F] ->].
  destruct (le8_canonical lb L8 Hlb) as [Rg E]. rewrite L, Z2Nat.id, E by lia. auto. Qed.

Lemma array_go_safe cap : forall todo acc bs, safe (dec_array_go c false cap todo acc bs).
Proof. induction todo as [|todo IH]; intros acc bs; [apply safe_ok|]. destruct (Nat.lt_ge_cases (length acc) cap) as [L|L].
  - rewrite array_go_S by assumption. apply dbind_safe; [now apply ok_safe | intros; apply IH].
  - cbn [dec_array_go]. pose proof (ok_safe c Hc bs) as Sf. destruct (dec c bs); [|apply safe_err, Sf | now destruct Sf].
    destruct (Nat.ltb_spec (length acc) cap); [lia | apply safe_err, Sf]. Qed.

Lemma vec_go_safe : forall fuel todo acc bs, safe (dec_vec_go c fuel todo acc bs).
Proof. induction fuel as [|fuel IH]; intros todo acc bs; (destruct (Z_le_gt_dec todo 0) as [T|T];
    [rewrite vec_go_stop by assumption; apply safe_ok|]).
  - cbn. destruct (Z.leb_spec todo 0); [lia | now apply safe_err].
  - rewrite vec_go_S by lia. apply dbind_safe; [now apply ok_safe | intros; apply IH]. Qed.

Theorem ok_array (n : nat) : Z.of_nat n + 1 < 2 ^ 64 -> codec_ok (c_array n c).
Proof. intros Hn. apply codec_ok_intro; cbn [enc dec wf c_array].
  - intros l rest [L F]. rewrite dec_array_res, <- app_assoc. apply prefixed_roundtrip; [assumption | lia | rewrite L; apply Z.eqb_refl].
  - intros bs l rest Hb H. rewrite dec_array_res in H. destruct (prefixed_canonical _ bs l rest Hb H) as (F & -> & G%Z.eqb_eq%Nat2Z.inj).
    rewrite <- app_assoc. auto.
  - intros bs. unfold dec_array. destruct (take 8 bs) as [[lb r]|]; [|now apply safe_err].
    pose proof (array_go_safe n (Z.to_nat (Z.min (le_to_Z lb) (Z.of_nat n + 1))) [] r) as Sf.
    destruct (dec_array_go c false n _ [] r); try exact Sf. destruct (_ && _); [exact Sf | apply safe_err, Sf]. Qed.

Lemma vec_safe bs : safe (dec_vec c (Some 1024) bs).
Proof. unfold dec_vec. destruct (take 8 bs) as [[lb r]|]; [|now apply safe_err].
  destruct (vec_go_safe (S (length r)) (le_to_Z lb) [] r) as [P Al].
  destruct (dec_vec_go c _ _ [] r); [split; [discriminate|] | apply safe_err | congruence]; simpl in *; lia. Qed.
End Seq.

Definition c_byte : codec Z := c_atom 1 (fun b => match b with [x] => Some x | _ => None end) (fun x => [x]) is_byte.

(** the pinned visitor ([push] on a full ArrayVec) panics on a length prefix of N+1 followed by N+1 elements *)
Example array_pinned_panics : dec (c_array_pinned 2 c_byte) (le8 3 ++ [7; 8; 9]) = DPanic.
Proof. vm_compute. reflexivity. Qed.

Example array_repaired_errors : dec (c_array 2 c_byte) (le8 3 ++ [7; 8; 9]) = DErr 0.
Proof. vm_compute. reflexivity. Qed.

Section Vec.
Context {A : Type} (c : codec A) (Hc : codec_ok c).
Hypothesis min_width : forall a, wf c a -> (1 <= length (enc c a))%nat.

Lemma flat_len (l : list A) : Forall (wf c) l -> (length l <= length (flat_map (enc c) l))%nat.
Proof. induction 1 as [|a l Wa _ IH]; simpl; [lia|]. rewrite app_length. pose proof (min_width a Wa). lia. Qed.

(** the repaired Vec decoder: lossless, canonical, never panics, and never asks for more than 1024 elements of
    capacity whatever length the input announces *)
Theorem ok_vec : (forall l : list A, Z.of_nat (length l) < 2 ^ 64 -> True) ->
  (forall l rest, Forall (wf c) l -> Z.of_nat (length l) < 2 ^ 64 ->
     res_of (dec (c_vec c) (enc (c_vec c) l ++ rest)) = Some (l, rest)) /\
  (forall bs l rest, Forall is_byte bs -> res_of (dec (c_vec c) bs) = Some (l, rest) ->
     Forall (wf c) l /\ bs = enc (c_vec c) l ++ rest) /\
  (forall bs, dec (c_vec c) bs <> DPanic) /\
  (forall bs, alloc_of (dec (c_vec c) bs) <= 1024).
Proof. intros _. cbn [enc dec c_vec]. split; [|split; [|split; intros bs; apply (vec_safe c Hc)]].
  - intros l rest F Hl. pose proof (flat_len l F). rewrite dec_vec_res, <- app_assoc.
    apply (prefixed_roundtrip c Hc); [assumption..|]. rewrite Nat2Z.id, app_length. apply Nat.leb_le. lia.
  - intros bs l rest Hb H. rewrite dec_vec_res in H. destruct (prefixed_canonical c Hc _ bs l rest Hb H) as (F & -> & _).
    rewrite <- app_assoc. auto. Qed.

End Vec.

(** the pinned Vec decoder passes the announced length to [Vec::with_capacity]: 2^40 elements requested for an
    8-byte input; the repaired one asks for at most 1024 *)
Example vec_pinned_alloc_unbounded : dec (c_vec_pinned c_byte) (le8 (2 ^ 40)) = DErr (2 ^ 40).
Proof. vm_compute. reflexivity. Qed.

Example vec_repaired_alloc_capped : dec (c_vec c_byte) (le8 (2 ^ 40)) = DErr 1024.
Proof. vm_compute. reflexivity. Qed.
