From ZK Require Import Model.Field Model.Pedersen Model.PS Model.Schnorr
  Proofs.FieldFacts Proofs.PedersenProofs Proofs.PSProofs.
Local Open Scope fld_scope.

Section P.
Variable K : Fld.
Add Field SchnorrField : (Fth K).

Theorem cp_verify_iff (h : K) gs (p : cproof K) c :
  cp_verify h gs p c = true <-> commit h gs (cp_rs p) (cp_rbf p) = cp_T p + cp_C p * c.
Proof. apply (feqb_ok K). Qed.

Theorem req_verify_iff (pk : pkey K) (p : cproof K) c v :
  req_verify pk p c = Some v <->
  commit (pk_g1 pk) (pk_y1s pk) (cp_rs p) (cp_rbf p) = cp_T p + cp_C p * c /\ v = cp_C p.
Proof. unfold req_verify. now rewrite if_Some, cp_verify_iff. Qed.

Theorem sig_verify_iff (pk : pkey K) (p : sproof K) c :
  sig_verify pk p c = true <->
  fst (sp_sig p) <> f0 /\
  commit (pk_g2 pk) (pk_y2s pk) (cp_rs (sp_cp p)) (cp_rbf (sp_cp p)) = cp_T (sp_cp p) + cp_C (sp_cp p) * c /\
  fst (sp_sig p) * (pk_x2 pk + cp_C (sp_cp p)) = snd (sp_sig p) * pk_g2 pk.
Proof. unfold sig_verify, is_well_formed. now rewrite !andb_true_iff, (fneqb_true K), cp_verify_iff, (feqb_ok K), (pairing_eq K), and_assoc. Qed.

Theorem identity_signature_rejected (pk : pkey K) s2 cp c : sig_verify pk (mkSP (f0, s2) cp) c = false.
Proof. unfold sig_verify, is_well_formed, fneqb. now rewrite (feqb_refl K). Qed.

Lemma commit_responses (h : K) gs ms ks bf kbf c : length ms = length ks ->
  commit h gs (map2 (fun m k => c * m + k) ms ks) (c * bf + kbf) = commit h gs ks kbf + commit h gs ms bf * c.
Proof. intros Hl. rewrite (commit_map2_lin K (fun m k => c * m + k) c f1) by (assumption || intros; ring). ring. Qed.

Theorem cp_complete (h : K) gs ms bf kbf ks c : length ms = length ks ->
  cp_verify h gs (cp_prove h gs ms bf kbf ks c) c = true.
Proof. intros Hl. apply cp_verify_iff. now apply commit_responses. Qed.

Theorem req_complete (pk : pkey K) ms bf kbf ks c : length ms = length ks ->
  req_verify pk (req_prove pk ms bf kbf ks c) c = Some (blind pk ms bf).
Proof. intros Hl. unfold req_verify, req_prove. rewrite cp_complete by assumption. reflexivity. Qed.

(** a signature proof whose commitment opens to [(ms, bf)] is a commitment proof together with a PS signature: the shown pair,
    unblinded with [bf], verifies on [ms] *)
Lemma sig_verify_opened (pk : pkey K) (p : sproof K) c ms bf : cp_C (sp_cp p) = commit (pk_g2 pk) (pk_y2s pk) ms bf ->
  sig_verify pk p c = cp_verify (pk_g2 pk) (pk_y2s pk) (sp_cp p) c && verify pk ms (unblind bf (sp_sig p)).
Proof. intros E. apply eq_true_iff_eq. rewrite sig_verify_iff, andb_true_iff, cp_verify_iff, verify_iff, E. unfold ps_relation; simpl.
  split; [intros (Hs & R & P) | intros (R & Hs & P)]; repeat split; try assumption; apply (eq_scaled K f1 _ _ _ _ P); unfold commit; ring. Qed.

Theorem sig_complete (pk : pkey K) ms s bf kbf ks r c : length ms = length ks ->
  verify pk ms s = true ->
  sig_verify pk (sig_prove pk ms s bf kbf ks r c) c = fneqb r f0.
Proof. intros Hl Hv. rewrite (sig_verify_opened pk (sig_prove pk ms s bf kbf ks r c) c ms bf eq_refl). cbn [sig_prove sp_cp sp_sig].
  now rewrite cp_complete, unblind_blind, randomize_verify, Hv, andb_true_r. Qed.

(** response scalars: the single fact behind all documented constraint patterns *)
Theorem response_scalar_spec (h : K) gs ms bf kbf ks c j : length ms = length ks -> (j < length ms)%nat ->
  nth j (cp_rs (cp_prove h gs ms bf kbf ks c)) f0 = c * nth j ms f0 + nth j ks f0.
Proof. intros Hl Hj. simpl.
  rewrite (nth_map2 (fun m k => c * m + k) ms ks j f0 f0 f0) by assumption. reflexivity. Qed.

Theorem builder_proof_transcript_eq (h : K) gs ms bf kbf ks c :
  cp_transcript (cp_prove h gs ms bf kbf ks c) = cp_builder_transcript (cp_commit_phase h gs ms bf kbf ks).
Proof. reflexivity. Qed.

(** ** perturbations of an accepted commitment proof, with their exact side conditions: the accepted and the changed
    equation ([cp_verify] is [feqb] of its two sides) differ by coefficient * (new - old) *)
Lemma cp_change_C (h : K) gs p c C' : cp_verify h gs p c = true -> C' <> cp_C p -> c <> f0 ->
  cp_verify h gs (mkCP C' (cp_T p) (cp_rbf p) (cp_rs p)) c = false.
Proof. intros Hv Hne Hc. apply (changed_feqb_false K c (cp_C p) C' _ _ _ _ Hv Hc (not_eq_sym Hne)). simpl. ring. Qed.

Lemma cp_change_T (h : K) gs p c T' : cp_verify h gs p c = true -> T' <> cp_T p ->
  cp_verify h gs (mkCP (cp_C p) T' (cp_rbf p) (cp_rs p)) c = false.
Proof. intros Hv Hne. apply (changed_feqb_false K f1 (cp_T p) T' _ _ _ _ Hv (f1_neq_f0 K) (not_eq_sym Hne)). simpl. ring. Qed.

Lemma cp_change_rbf (h : K) gs p c r' : cp_verify h gs p c = true -> r' <> cp_rbf p -> h <> f0 ->
  cp_verify h gs (mkCP (cp_C p) (cp_T p) r' (cp_rs p)) c = false.
Proof. intros Hv Hne Hh. apply (changed_feqb_false K h r' (cp_rbf p) _ _ _ _ Hv Hh Hne). unfold commit. simpl. ring. Qed.

Lemma cp_change_r (h : K) gs p c j v : cp_verify h gs p c = true ->
  (j < length (cp_rs p))%nat -> (j < length gs)%nat -> nth j gs f0 <> f0 -> v <> nth j (cp_rs p) f0 ->
  cp_verify h gs (mkCP (cp_C p) (cp_T p) (cp_rbf p) (upd j v (cp_rs p))) c = false.
Proof. intros Hv Hj Hg Hgj Hne. apply (changed_feqb_false K (nth j gs f0) v (nth j (cp_rs p) f0) _ _ _ _ Hv Hgj Hne). simpl.
  rewrite (commit_upd K) by assumption. ring. Qed.

Lemma cp_change_challenge (h : K) gs p c c' : cp_verify h gs p c = true -> c' <> c -> cp_C p <> f0 ->
  cp_verify h gs p c' = false.
Proof. intros Hv Hne HC. apply (changed_feqb_false K (cp_C p) c c' _ _ _ _ Hv HC (not_eq_sym Hne)). ring. Qed.

(** the one challenge a given proof can be accepted under is a function of the proof and the parameters *)
Theorem accepting_challenge_formula (h : K) gs (p : cproof K) c : cp_C p <> f0 ->
  cp_verify h gs p c = true -> c = (commit h gs (cp_rs p) (cp_rbf p) - cp_T p) / cp_C p.
Proof. intros HC V. apply cp_verify_iff in V. rewrite V. field. exact HC. Qed.

Theorem unique_accepting_challenge (h : K) gs p c c' : cp_C p <> f0 ->
  cp_verify h gs p c = true -> cp_verify h gs p c' = true -> c = c'.
Proof. intros HC H1 H2. now rewrite (accepting_challenge_formula h gs p c HC H1), (accepting_challenge_formula h gs p c' HC H2). Qed.

Lemma cp_change_generator (h : K) gs p c j g' : cp_verify h gs p c = true ->
  (j < length (cp_rs p))%nat -> (j < length gs)%nat -> nth j (cp_rs p) f0 <> f0 -> g' <> nth j gs f0 ->
  cp_verify h (upd j g' gs) p c = false.
Proof. intros Hv Hj Hg Hrj Hne. apply (changed_feqb_false K (nth j (cp_rs p) f0) g' (nth j gs f0) _ _ _ _ Hv Hrj Hne). unfold commit.
  rewrite (ip_upd_l K) by assumption. ring. Qed.

(** a simulated transcript (T chosen from the challenge and random responses) is accepted under
    another challenge only if (c' - c) * C = 0 *)
Definition simulate (h : K) gs (C : K) rbf rs c : cproof K := mkCP C (commit h gs rs rbf - C * c) rbf rs.
Theorem simulated_accepts (h : K) gs C rbf rs c : cp_verify h gs (simulate h gs C rbf rs c) c = true.
Proof. apply cp_verify_iff. simpl. ring. Qed.
Theorem simulated_other_challenge (h : K) gs C rbf rs c c' :
  cp_verify h gs (simulate h gs C rbf rs c) c' = true <-> C * (c' - c) = f0.
Proof. rewrite cp_verify_iff. simpl.
  rewrite <- (eq_iff_diff0 K (commit h gs rs rbf - C * c + C * c') (commit h gs rs rbf)) by ring. split; congruence. Qed.

(** ** special soundness: two accepting transcripts with the same first message give an opening *)
Definition ext (d r r' : K) : K := (r - r') / d.
Lemma ext_lin (d x y : K) : ext d x y = finv d * x + - finv d * y.
Proof. unfold ext. rewrite (Fdiv_def (Fth K)). ring. Qed.

(** two accepted proofs with one first message (C, T), whatever their shape, open C; only the two response lists need one
    length, none that of [gs] *)
Theorem cp_extract (h : K) gs (p p' : cproof K) c c' : c - c' <> f0 -> length (cp_rs p) = length (cp_rs p') ->
  cp_C p = cp_C p' -> cp_T p = cp_T p' -> cp_verify h gs p c = true -> cp_verify h gs p' c' = true ->
  cp_C p = commit h gs (map2 (ext (c - c')) (cp_rs p) (cp_rs p')) (ext (c - c') (cp_rbf p) (cp_rbf p')).
Proof. intros Hc Hl EC ET H1 H2. apply cp_verify_iff in H1, H2.
  rewrite (commit_map2_lin K _ _ _ (ext_lin (c - c'))), H1, H2, <- EC, <- ET by assumption. field. exact Hc. Qed.

(** the extracted message inherits every linear statement the responses satisfy under both challenges: [ext] acts
    entrywise (no bound on [i]: both sides are 0 beyond the end), and on two affine responses it returns the slope *)
Lemma ext_0 d : ext d f0 f0 = f0.
Proof. rewrite ext_lin. ring. Qed.
Lemma nth_map2_ext (d : K) rs rs' i : length rs = length rs' ->
  nth i (map2 (ext d) rs rs') f0 = ext d (nth i rs f0) (nth i rs' f0).
Proof. intros L. rewrite <- (nth_map2_dflt (ext d) _ _ i f0 f0 L). now rewrite ext_0. Qed.
Lemma ext_public c c' v k : c - c' <> f0 -> ext (c - c') (c * v + k) (c' * v + k) = v.
Proof. intros Hc. unfold ext. now field. Qed.
Lemma ext_add c c' a a' v : c - c' <> f0 -> ext (c - c') (a + c * v) (a' + c' * v) = ext (c - c') a a' + v.
Proof. intros Hc. unfold ext. now field. Qed.
Lemma ext_sub c c' a a' v : c - c' <> f0 -> ext (c - c') (a - c * v) (a' - c' * v) = ext (c - c') a a' - v.
Proof. intros Hc. unfold ext. now field. Qed.

(** r_i = s_j + c * a under both challenges  =>  m_i = n_j + a   (public addition) *)
Lemma ext_shift (rs rs' ss ss' : list K) c c' a i j : c - c' <> f0 ->
  (i < length rs)%nat -> length rs = length rs' -> (j < length ss)%nat -> length ss = length ss' ->
  nth i rs f0 = nth j ss f0 + c * a -> nth i rs' f0 = nth j ss' f0 + c' * a ->
  nth i (map2 (ext (c - c')) rs rs') f0 = nth j (map2 (ext (c - c')) ss ss') f0 + a.
Proof. intros Hc _ Hl _ Hl2 H1 H2. rewrite !nth_map2_ext, H1, H2 by assumption. now apply ext_add. Qed.

(** if the revealed commitment scalar is NOT fixed before the challenge, any hidden value passes *)
Lemma revealed_scalar_forgery (c v hidden kk : K) : exists k, c * hidden + kk = c * v + k.
Proof. exists (c * hidden + kk - c * v). ring. Qed.

(** special soundness of the signature proof: an opening of the commitment AND a valid signature on it *)
Theorem sig_extract (pk : pkey K) (p p' : sproof K) c c' : c - c' <> f0 ->
  length (cp_rs (sp_cp p)) = length (cp_rs (sp_cp p')) ->
  cp_C (sp_cp p) = cp_C (sp_cp p') -> cp_T (sp_cp p) = cp_T (sp_cp p') ->
  sig_verify pk p c = true -> sig_verify pk p' c' = true ->
  let ms := map2 (ext (c - c')) (cp_rs (sp_cp p)) (cp_rs (sp_cp p')) in
  let bf := ext (c - c') (cp_rbf (sp_cp p)) (cp_rbf (sp_cp p')) in
  cp_C (sp_cp p) = commit (pk_g2 pk) (pk_y2s pk) ms bf /\ verify pk ms (unblind bf (sp_sig p)) = true.
Proof. intros Hc Hl EC ET H1 H2 ms bf.
  assert (E : cp_C (sp_cp p) = commit (pk_g2 pk) (pk_y2s pk) ms bf)
    by (apply sig_verify_iff in H1 as (_ & R1 & _), H2 as (_ & R2 & _); apply cp_extract; try assumption; now apply cp_verify_iff).
  split; [exact E|]. rewrite (sig_verify_opened pk p c ms bf E) in H1. now apply andb_true_iff in H1. Qed.

Theorem request_sign_unblind (sk : skey K) (pk : pkey K) ms bf kbf ks c u :
  key_ok K sk pk -> pk_g1 pk <> f0 -> u <> f0 -> length ms = length ks ->
  exists v, req_verify pk (req_prove pk ms bf kbf ks c) c = Some v /\
            verify pk ms (unblind bf (blind_sign sk pk u v)) = true.
Proof. intros Hk Hg Hu Hl. exists (blind pk ms bf). split; [now apply req_complete | now apply (blind_sign_unblind K)]. Qed.

End P.
