(** C09 — Commitments are the exact Pedersen map and open only to what was committed. *)
From ZK Require Import Model.Field Model.QBls Model.Pedersen Proofs.FieldFacts Proofs.PedersenProofs.
Local Open Scope fld_scope.

(** the commitment is h^bf * prod gi^mi (additively, in discrete-log form: bf*h + sum mi*gi) *)
Theorem C09_commit_spec : forall (K : Fld) (h : K) gs ms bf,
  commit h gs ms bf = h * bf + ip gs ms.
Proof. reflexivity. Qed.

Theorem C09_verify_opening_iff : forall (K : Fld) (h : K) gs c bf ms,
  verify_opening h gs c bf ms = true <-> commit h gs ms bf = c.
Proof. exact verify_opening_iff. Qed.

Theorem C09_opening_accepts_original : forall (K : Fld) (h : K) gs bf ms,
  verify_opening h gs (commit h gs ms bf) bf ms = true.
Proof. exact opening_accepts_original. Qed.

Theorem C09_single_coordinate_rejects : forall (K : Fld) (h : K) gs ms bf j v,
  (j < length ms)%nat -> (j < length gs)%nat -> nth j gs f0 <> f0 -> v <> nth j ms f0 ->
  verify_opening h gs (commit h gs ms bf) bf (upd j v ms) = false.
Proof. exact single_coordinate_rejects. Qed.

Theorem C09_single_coordinate_iff : forall (K : Fld) (h : K) gs ms bf j v,
  (j < length ms)%nat -> (j < length gs)%nat ->
  (verify_opening h gs (commit h gs ms bf) bf (upd j v ms) = true <-> nth j gs f0 = f0 \/ v = nth j ms f0).
Proof. exact single_coordinate_iff. Qed.

Theorem C09_wrong_bf_rejects : forall (K : Fld) (h : K) gs ms bf bf', h <> f0 -> bf' <> bf ->
  verify_opening h gs (commit h gs ms bf) bf' ms = false.
Proof. exact wrong_bf_rejects. Qed.

Theorem C09_wrong_commitment_rejects : forall (K : Fld) (h : K) gs ms bf c, c <> commit h gs ms bf ->
  verify_opening h gs c bf ms = false.
Proof. intros K h gs ms bf c Hc. apply (feqb_false K). congruence. Qed.

Theorem C09_commit_add : forall (K : Fld) (h : K) gs ms ms' bf bf', length ms = length ms' ->
  commit h gs (map2 fadd ms ms') (bf + bf') = commit h gs ms bf + commit h gs ms' bf'.
Proof. exact commit_add. Qed.

(** degenerate inputs: a zero blinding factor, or an all-zero message, change nothing in the formula *)
Theorem C09_commit_zero_bf : forall (K : Fld) (h : K) gs ms, commit h gs ms f0 = ip gs ms.
Proof. exact commit_zero_bf. Qed.

Theorem C09_commit_zero_message : forall (K : Fld) (h : K) gs n bf, commit h gs (repeat f0 n) bf = (h * bf)%fld.
Proof. exact commit_zero_message. Qed.

Theorem C09_zero_bf_still_binds : forall (K : Fld) (h : K) gs ms j v,
  (j < length ms)%nat -> (j < length gs)%nat -> nth j gs f0 <> f0 -> v <> nth j ms f0 ->
  verify_opening h gs (commit h gs ms f0) f0 (upd j v ms) = false.
Proof. intros K h gs ms. exact (single_coordinate_rejects K h gs ms f0). Qed.

Theorem C09_zero_message_commitment_is_not_identity : forall (K : Fld) (h : K) gs n bf, h <> f0 -> bf <> f0 ->
  commit h gs (repeat f0 n) bf <> f0.
Proof. intros K h gs n bf Hh Hb. rewrite (commit_zero_message K). now apply (fmul_neq0 K). Qed.

(** non-vacuity at the BLS12-381 scalar field: a concrete opening, one changed coordinate, one changed factor *)
Example C09_nonvacuous :
  let h := fq 11 in let gs := [fq 13; fq 17; fq 19] in let ms := [fq 0; fq 1; fq (-1)] in
  verify_opening h gs (commit h gs ms (fq 5)) (fq 5) ms = true /\
  verify_opening h gs (commit h gs ms (fq 5)) (fq 5) (upd 2 (fq 7) ms) = false /\
  verify_opening h gs (commit h gs ms (fq 5)) (fq 6) ms = false.
Proof. (* the commitment stands three times in the statement: let-bound it is evaluated once *)
  intros h gs ms. set (c := commit h gs ms (fq 5)). vm_compute. auto. Qed.

Print Assumptions C09_commit_spec.
Print Assumptions C09_verify_opening_iff.
Print Assumptions C09_opening_accepts_original.
Print Assumptions C09_single_coordinate_rejects.
Print Assumptions C09_single_coordinate_iff.
Print Assumptions C09_wrong_bf_rejects.
Print Assumptions C09_wrong_commitment_rejects.
Print Assumptions C09_commit_add.
Print Assumptions C09_commit_zero_bf.
Print Assumptions C09_commit_zero_message.
Print Assumptions C09_zero_bf_still_binds.
Print Assumptions C09_zero_message_commitment_is_not_identity.
Print Assumptions C09_nonvacuous.
